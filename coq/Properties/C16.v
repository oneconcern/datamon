(* C16 - the local file system store behaves like an object store.
   Statements and their derivations from Proofs/LocalFSProofs.v, Base/Listing.v, Base/Paging.v,
   Base/ListFacts.v. *)
From Coq Require Import List String NArith Bool Sorted.
From DM Require Import Base.Str Base.StrOrder Base.Paging Base.Listing Base.ListFacts Model.LocalFS Proofs.LocalFSProofs.
Import ListNotations.
Open Scope list_scope.

(* reads return the last written bytes; a create-if-absent write on an existing key changes nothing *)
Theorem C16_get_after_put : forall k v e s r s', lput k v e s = (r, s') ->
  (r = LOk -> lget k s' = Some v) /\ (r = LExists -> s' = s /\ e = true /\ lget k s <> None) /\ r <> LNotFound.
Proof.
  intros k v e s r s' Hp.
  (* what is read back is lget_lput at k; the answer follows the three cases of lput *)
  pose proof (lget_lput k v e s k) as G. rewrite Hp, String.eqb_refl in G.
  unfold lput in Hp. destruct (lget k s) as [old|]; [destruct e|]; injection Hp as <- <-.
  - split; [discriminate|]. split; [|discriminate]. intros _. repeat apply conj; auto. discriminate.
  - split; [intros _; exact G|]. split; discriminate.
  - split; [intros _; exact G|]. split; discriminate.
Qed.
Print Assumptions C16_get_after_put.

Theorem C16_put_frame : forall k v e s r s' k', lput k v e s = (r, s') -> k <> k' -> lget k' s' = lget k' s.
Proof.
  intros k v e s r s' k' Hp Hne. pose proof (lget_lput k v e s k') as G. rewrite Hp in G. cbn [snd] in G. rewrite G.
  destruct (String.eqb k' k) eqn:E; [apply String.eqb_eq in E; congruence|reflexivity].
Qed.
Print Assumptions C16_put_frame.

Theorem C16_put_if_absent : forall k v s, fst (lput k v true s) = LOk <-> lget k s = None.
Proof. intros k v s. unfold lput. destruct (lget k s); split; intros; try discriminate; auto. Qed.
Print Assumptions C16_put_if_absent.

Theorem C16_delete : forall k s k', lget k' (ldelete k s) = if String.eqb k' k then None else lget k' s.
Proof. intros k s k'. apply lget_lremove. Qed.
Print Assumptions C16_delete.

(* deleting a name that is not a key (the directory part of keys, for instance) changes nothing *)
Theorem C16_delete_nonkey : forall k s, lget k s = None -> ldelete k s = s.
Proof. exact (aremove_absent String.eqb). Qed.
Print Assumptions C16_delete_nonkey.

(* an emptied store holds no key and accepts every write again *)
Theorem C16_clear : forall s k v e, lget k (lclear s) = None /\ lput k v e (lclear s) = (LOk, [(k, v)]).
Proof. intros. split; reflexivity. Qed.
Print Assumptions C16_clear.

(* a listing holds exactly the names under the prefix (cut after the first delimiter when one is
   given), each once, in byte-lexicographic order *)
Theorem C16_listing_exact : forall p d s x,
  In x (list_all p d s) <-> exists k, In k (map fst s) /\ starts_with p k = true /\ x = cut p d k.
Proof. intros. apply list_keys_exact. Qed.
Print Assumptions C16_listing_exact.

Theorem C16_listing_sorted : forall p d s, StronglySorted slt (list_all p d s).
Proof. intros. apply list_keys_sorted. Qed.
Print Assumptions C16_listing_sorted.

(* any page size: the pages, followed through their continuation tokens, are the listing *)
Theorem C16_paging : forall p d s count, 0 < count ->
  all_pages exact_seek (S (List.length (list_all p d s))) None count (list_all p d s) = Some (list_all p d s).
Proof. intros p d s count Hc. apply paging_complete; [exact exact_seek_suffix|exact Hc|apply list_keys_sorted]. Qed.
Print Assumptions C16_paging.

(* create-if-absent under any order of the writers' exclusive opens: one winner, whose bytes stay *)
Theorem C16_excl : forall k w ws s, lget k s = None ->
  fst (excl_writers k (w :: ws) s) = LOk :: map (fun _ => LExists) ws /\
  lget k (snd (excl_writers k (w :: ws) s)) = Some w.
Proof.
  intros k w ws s Hn. cbn [excl_writers]. unfold lput. rewrite Hn.
  assert (Hne : lget k ((k, w) :: s) <> None) by (cbn; rewrite String.eqb_refl; discriminate).
  destruct (excl_all_fail k ws _ Hne) as [A B]. destruct (excl_writers k ws ((k, w) :: s)) as [rs s''].
  cbn in *. subst. split; [reflexivity|]. cbn. now rewrite String.eqb_refl.
Qed.
Print Assumptions C16_excl.
