(* C17 - a read-only mount shows exactly the bundle.
   Statements and their derivations from Proofs/MountProofs.v, Proofs/MergeProofs.v.  Model/Mount.v
   is compared with the file system operations of pkg/fuse (streamed and pre-downloaded mounts) on
   every run. *)
From Coq Require Import List String NArith Bool Arith Lia.
From DM Require Import Base.ListFacts Model.Mount Proofs.MountProofs Proofs.MergeProofs.
Import ListNotations.
Open Scope list_scope.

(* A name is listed in (and can be looked up from) a directory exactly when some file of the bundle
   lies at or below that name: the mount shows the bundle's files and the directories they imply,
   and nothing else. *)
Theorem C17_children_exact : forall d paths n,
  (exists b, In (n, b) (children d paths)) <-> (exists p, In p paths /\ is_prefix (d ++ [n]) p = true).
Proof. exact children_exact. Qed.
Print Assumptions C17_children_exact.

(* No name is listed twice. *)
Theorem C17_children_nodup : forall d paths, NoDup (map fst (children d paths)).
Proof. intros. unfold children. rewrite uniq_names_fst. apply uniq_strs_nodup. Qed.
Print Assumptions C17_children_nodup.

(* A listing read through buffers of any sizes, each call resumed at the offset the previous one
   ended at, yields the remaining children in order - every child exactly once when read to the end. *)
Theorem C17_resume_complete : forall (l : list (string * bool)) ks off,
  List.length l - off <= fold_right Nat.add 0 ks -> resume l off ks = skipn off l.
Proof. exact (@resume_complete (string * bool)). Qed.
Print Assumptions C17_resume_complete.

Theorem C17_listing_from_start_complete : forall (l : list (string * bool)) ks,
  List.length l <= fold_right Nat.add 0 ks -> resume l 0 ks = l.
Proof. intros l ks H. rewrite resume_complete by lia. reflexivity. Qed.
Print Assumptions C17_listing_from_start_complete.

(* A read returns exactly the bytes of its range, cut at the end of the file. *)
Theorem C17_read_length : forall data off len, List.length (read_bytes data off len) = Nat.min len (List.length data - off).
Proof. exact read_length. Qed.
Print Assumptions C17_read_length.

Theorem C17_read_nth : forall data off len i, i < List.length (read_bytes data off len) ->
  nth i (read_bytes data off len) 0%N = nth (off + i) data 0%N.
Proof.
  intros data off len i H. rewrite read_length in H. unfold read_bytes.
  rewrite nth_firstn_lt by lia. apply nth_skipn.
Qed.
Print Assumptions C17_read_nth.
