(* C21 - sidecar parameters survive environment-variable encoding.
   Statements and their derivations from Proofs/ParamProofs.v. *)
From Coq Require Import List NArith Bool String.
From DM Require Import Model.Param Proofs.ParamProofs.
Import ListNotations.
Open Scope N_scope.

(* For every FUSE parameter set (any code points in any value, any number of bundles): when the
   encoder succeeds, the globals variable and every bundle variable decode - with the separators
   read from their first two characters, by the documented decoder - to exactly the flags and
   the non-empty parameters that were given, in order. *)
Theorem C21_fuse_roundtrip : forall p envs, fuse_env p = Some envs ->
  exists bs g,
    envs = combine (map (fun b => cp "dm_fuse_bd_" ++ fb_name b) (fp_bundles p)) bs ++ [(cp "dm_fuse_opts", g)] /\
    dec_string g = Some (expected (fuse_global_flags p) (fuse_global_fields p)) /\
    Forall2 (fun b e => dec_string e = Some (expected [] (fb_fields b))) (fp_bundles p) bs.
Proof.
  intros p envs H. rewrite fuse_env_eq in H. apply (env_of_roundtrip _ _ _ _ _ _ _ _ _ H); [reflexivity..|].
  unfold fuse_global_flags. now destruct (fp_sleep p).
Qed.
Print Assumptions C21_fuse_roundtrip.

Theorem C21_pg_roundtrip : forall p envs, pg_env p = Some envs ->
  exists ds g,
    envs = combine (map (fun d => cp "dm_pg_db_" ++ pd_name d) (pp_dbs p)) ds ++ [(cp "dm_pg_opts", g)] /\
    dec_string g = Some (expected (pg_global_flags p) (pg_global_fields p)) /\
    Forall2 (fun d e => dec_string e = Some (expected [] (pd_fields d))) (pp_dbs p) ds.
Proof.
  intros p envs H. rewrite pg_env_eq in H. apply (env_of_roundtrip _ _ _ _ _ _ _ _ _ H); [reflexivity..|].
  unfold pg_global_flags. now destruct (pp_sleep p).
Qed.
Print Assumptions C21_pg_roundtrip.

(* The general statement both rest on: any separators that differ, are not '.', and occur in no
   flag, name or value give a string that decodes to the flags and non-empty fields. *)
Theorem C21_enc_dec : forall i k flags fields e,
  i <> k -> i <> dot_char -> k <> dot_char ->
  (forall f, In f flags -> nonempty f = true /\ sep_free i k f) ->
  (forall nv, In nv fields -> nonempty (fst nv) = true /\ sep_free i k (fst nv)) ->
  enc_string i k flags fields = Some e ->
  dec_string e = Some (expected flags fields).
Proof. exact enc_dec. Qed.
Print Assumptions C21_enc_dec.

(* The chosen separators never occur in a value, so the encoder never has to refuse. *)
Theorem C21_never_refuses : forall values i k flags fields,
  set_separators values = (i, k) ->
  (forall nv, In nv fields -> In (snd nv) values) ->
  enc_string i k flags fields <> None.
Proof.
  intros values i k flags fields Es Hv. unfold enc_string.
  destruct (set_separators_spec _ _ _ Es) as [_ [_ [_ [Hi [Hk _]]]]].
  destruct (existsb _ fields) eqn:E; [|discriminate].
  apply existsb_exists in E. destruct E as [nv [Hin Hc]].
  unfold contains_sep in Hc. rewrite (mem_concat_false i values (snd nv)), (mem_concat_false k values (snd nv)) in Hc; auto.
  discriminate.
Qed.
Print Assumptions C21_never_refuses.

(* Recorded defect of the pinned tree (repaired by a fix: commit): choosing separators that avoid
   only the values lets a separator coincide with a parameter name. *)
Theorem C21_values_only_separators_refuted :
  let v := map N.of_nat (seq 48 35) in
  let '(i, k) := set_separators_old [cp "true"; v] in
  exists e, enc_string i k [cp "S"] [(cp "c", v)] = Some e /\
            dec_string e <> Some (expected [cp "S"] [(cp "c", v)]).
Proof. exact old_separators_refuted. Qed.
Print Assumptions C21_values_only_separators_refuted.
