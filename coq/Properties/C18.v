(* C18 - a mutable mount behaves like a file system and commits what it shows.
   The reference tree of Model/MutFs.v is the statement: every operation on the mount must answer as
   `step` does, and the committed bundle must hold `files_of` the final tree.  The mount is driven
   through its file system operations, with the harness in the role of the kernel (lookups, lookup
   counts, forgets, VFS checks), and compared step by step on every run; on top of that no live entries
   may share an inode and nothing may crash.  The theorems below establish that the reference tree
   itself behaves as a directory tree should.
   Statements and their derivations from Proofs/MutFsWf.v, Proofs/InodeProofs.v. *)
From Coq Require Import List String NArith Bool Arith Lia.
From DM Require Import Base.ListFacts Model.Mount Model.MutFs Model.Inode Model.InodeCheck Proofs.MutFsWf Proofs.InodeProofs.
Import ListNotations.
Open Scope string_scope.
Open Scope list_scope.

(* The reference tree stays a tree under every program of operations, renames of whole subtrees
   included: no path occurs twice, no node sits at the root path, every node's parent is a directory
   of the tree. *)
Theorem C18_tree_stays_a_tree : forall ops t, wf t -> wf (run ops t).
Proof. intros ops. apply fold_left_inv. intros t o _. apply step_wf. Qed.
Print Assumptions C18_tree_stays_a_tree.

Theorem C18_empty_tree_is_a_tree : wf [].
Proof. split; [constructor|split; intros e []]. Qed.
Print Assumptions C18_empty_tree_is_a_tree.

(* An operation that is refused changes nothing. *)
Theorem C18_refused_changes_nothing : forall t o e, snd (step t o) = RErr e -> fst (step t o) = t.
Proof. intros t o e. apply (step_shape t o (fun s => snd s = RErr e -> fst s = t)); [reflexivity|discriminate]. Qed.
Print Assumptions C18_refused_changes_nothing.

(* Lookups, reads and listings change nothing. *)
Theorem C18_queries_change_nothing : forall t o,
  match o with FLookup _ | FRead _ _ _ | FReaddir _ => True | _ => False end -> fst (step t o) = t.
Proof. intros t o H. destruct o; try contradiction; cbn [step]; destruct (get p t) as [[|d]|]; reflexivity. Qed.
Print Assumptions C18_queries_change_nothing.

(* A successful create / mkdir / unlink changes exactly the one path. *)
Theorem C18_create_adds_one : forall t p, snd (step t (FCreate p)) = ROk ->
  get p (fst (step t (FCreate p))) = Some (NFile []) /\ forall q, q <> p -> get q (fst (step t (FCreate p))) = get q t.
Proof.
  intros t p H. cbn [step] in *. destruct (parent_check p t) eqn:Ec; [discriminate|].
  destruct (get p t); [discriminate|]. split.
  - apply get_put_same. intros ->. discriminate.
  - intros q Hq. apply get_put_other. congruence.
Qed.
Print Assumptions C18_create_adds_one.

Theorem C18_mkdir_adds_one : forall t p, snd (step t (FMkdir p)) = ROk ->
  get p (fst (step t (FMkdir p))) = Some NDir /\ forall q, q <> p -> get q (fst (step t (FMkdir p))) = get q t.
Proof.
  intros t p H. cbn [step] in *. destruct (parent_check p t) eqn:Ec; [discriminate|].
  destruct (get p t); [discriminate|]. split.
  - apply get_put_same. intros ->. discriminate.
  - intros q Hq. apply get_put_other. congruence.
Qed.
Print Assumptions C18_mkdir_adds_one.

Theorem C18_unlink_removes_one : forall t p, snd (step t (FUnlink p)) = ROk ->
  get p (fst (step t (FUnlink p))) = None /\ forall q, q <> p -> get q (fst (step t (FUnlink p))) = get q t.
Proof.
  intros t p H. cbn [step] in *. destruct p as [|x p]; [discriminate|].
  destruct (get (x :: p) t) as [[|d]|] eqn:Eg; try discriminate. split.
  - now apply get_remove_same.
  - intros q Hq. apply get_remove_other. congruence.
Qed.
Print Assumptions C18_unlink_removes_one.

(* What is written at an offset is what is read back there, whatever was there before (holes are
   zero-filled); bytes before the written range are kept. *)
Theorem C18_write_then_read : forall old off data, read_bytes (write_at old off data) off (List.length data) = data.
Proof.
  intros old off data. unfold read_bytes, write_at.
  set (padded := old ++ zeros (off - List.length old)).
  assert (Hl : off <= List.length padded) by (unfold padded; rewrite app_length, zeros_length; lia).
  rewrite skipn_app. rewrite firstn_length, Nat.min_l by exact Hl. rewrite Nat.sub_diag. cbn [skipn].
  rewrite skipn_all2 by (rewrite firstn_length; lia). cbn [app].
  rewrite firstn_app, Nat.sub_diag. rewrite app_nil_r. apply firstn_all.
Qed.
Print Assumptions C18_write_then_read.

Theorem C18_write_keeps_prefix : forall old off data i, i < off -> i < List.length old ->
  nth i (write_at old off data) 0%N = nth i old 0%N.
Proof.
  intros old off data i H1 H2. unfold write_at. rewrite app_nth1.
  - rewrite nth_firstn_lt by exact H1. now rewrite app_nth1.
  - rewrite firstn_length, app_length. lia.
Qed.
Print Assumptions C18_write_keeps_prefix.

(* a concrete program: rename moves a subtree, rmdir refuses a non-empty directory *)
Example C18_example :
  let ops := [FMkdir ["a"]; FCreate ["a"; "f"]; FWrite ["a"; "f"] 2 [7; 8]%N; FMkdir ["b"]; FRename ["a"] ["b"; "c"]] in
  files_of (run ops []) = [(["b"; "c"; "f"], [0; 0; 7; 8]%N)] /\
  snd (step (run ops []) (FRmdir ["b"])) = RErr ENOTEMPTY /\
  snd (step (run ops []) (FLookup ["a"; "f"])) = RErr ENOENT.
Proof. vm_compute. repeat split. Qed.

(* inode numbers (pkg/fuse/inode.go): a number handed out is above the base, in use by no live
   entry, and the bookkeeping stays exact: numbers above the base are live or on the free stack,
   each once *)
Theorem C18_inode_fresh : forall base g live, iinv base g live ->
  ~ In (fst (ialloc g)) live /\ (base < fst (ialloc g))%N /\ iinv base (snd (ialloc g)) (live ++ [fst (ialloc g)]).
Proof. exact ialloc_fresh. Qed.
Print Assumptions C18_inode_fresh.

Theorem C18_inode_release : forall base g live k i, iinv base g live -> nth_error live k = Some i ->
  iinv base (irelease i g) (remove_nth k live).
Proof. exact irelease_inv. Qed.
Print Assumptions C18_inode_release.

(* after any history of allocations and releases of live numbers, no two live entries share a number *)
Theorem C18_inodes_never_shared : forall base ops,
  let st := ifinal ({| ig_hi := base; ig_free := [] |}, []) ops in
  NoDup (snd st) /\ forall x, In x (snd st) -> (base < x)%N.
Proof.
  intros base ops. pose proof (ifinal_inv base ops _ _ (iinv_init base)) as [_ [A B]]. cbv zeta. split.
  - exact (NoDup_app_l _ _ A).
  - intros x Hx. apply (B x). apply in_app_iff. now left.
Qed.
Print Assumptions C18_inodes_never_shared.

(* the executable reading of this clause, which the check applies to the implementation's answers,
   holds of the model's answers for every history *)
Theorem C18_inode_spec : forall base ops,
  ispec base [] ops (irun ({| ig_hi := base; ig_free := [] |}, []) ops) = true.
Proof. intros. apply irun_meets_spec. apply iinv_init. Qed.
Print Assumptions C18_inode_spec.

Example C18_inode_example :
  irun ({| ig_hi := 1023; ig_free := [] |}, []) [IAlloc; IAlloc; IAlloc; IFree 1; IFree 1; IAlloc; IAlloc; IAlloc]
  = [Some 1024; Some 1025; Some 1026; Some 1025; Some 1026; Some 1025; Some 1026; Some 1027]%N.
Proof. vm_compute. reflexivity. Qed.
