(* C06 - bundles become visible atomically and are never altered afterwards.
   Statements and their derivations from Proofs/AtomicProofs.v, Proofs/RepoProofs.v.  The write
   program of an upload (Model/Atomic.v) is compared with the calls the real upload makes on a
   crash-injecting store, at every crash point, by the harness on every run. *)
From Coq Require Import List String Ascii NArith Bool.
From DM Require Import Base.ListFacts Base.Str Gen.Paths Model.Meta Model.Bundle Model.RepoOps Model.WorldCheck Model.Atomic
  Proofs.RepoProofs Proofs.AtomicProofs.
Import ListNotations.
Open Scope list_scope.

(* An upload interrupted after any number n of its metadata writes short of all of them: no bundle
   descriptor of any repository has appeared or changed - what is visible, and what the visible
   descriptors say, is exactly what it was. *)
Theorem C06_interrupted_upload_invisible : forall r id es E n m r' id',
  noslash r = true -> noslash id = true -> noslash r' = true -> noslash id' = true ->
  n < List.length (upload_writes r id es E) ->
  mget (GetArchivePathToBundle r' id') (crashed_upload r id es E n m) = mget (GetArchivePathToBundle r' id') m.
Proof.
  intros r id es E n m r' id' Hr Hid Hr' Hid' Hn. unfold crashed_upload. apply apply_excl_frame. intros Hin.
  destruct (interrupted_keys _ _ _ _ _ _ Hn Hin) as [j Hj]. symmetry in Hj. now apply filelist_not_descriptor in Hj.
Qed.
Print Assumptions C06_interrupted_upload_invisible.

(* At every crash point (the last included) every object that existed keeps its value... *)
Theorem C06_crash_keeps_existing : forall r id es E n m k v, mget k m = Some v ->
  mget k (crashed_upload r id es E n m) = Some v.
Proof. intros r id es E n m. unfold crashed_upload. apply apply_excl_extends. Qed.
Print Assumptions C06_crash_keeps_existing.

(* ...and nothing outside bundles/<repo>/<id>/ is created either. *)
Theorem C06_crash_frame : forall r id es E n m k, under_bundle r id k = false ->
  mget k (crashed_upload r id es E n m) = mget k m.
Proof.
  intros r id es E n m k Hk. unfold crashed_upload. apply apply_excl_frame. rewrite <- firstn_map. intros Hin. apply In_firstn in Hin.
  apply (bundle_writes_under r id (chunk E es)) in Hin. congruence.
Qed.
Print Assumptions C06_crash_frame.

(* The complete program on a fresh id leaves the descriptor with the right file-list count and
   every file list with its entries. *)
Theorem C06_completed_upload_visible : forall r id es E m, noslash r = true -> noslash id = true ->
  (forall k, under_bundle r id k = true -> mget k m = None) ->
  let m' := apply_excl (upload_writes r id es E) m in
  mget (GetArchivePathToBundle r id) m' = Some (VBundle id (N.of_nat (List.length (chunk E es)))) /\
  (forall j c, nth_error (chunk E es) j = Some c -> mget (GetArchivePathToBundleFileList r id (N.of_nat j)) m' = Some (VIndex c)).
Proof.
  intros r id es E m _ _ Hfree.
  destruct (bundle_written r id (chunk E es) (upload_writes r id es E) m (Permutation.Permutation_refl _) Hfree) as [Hd Hl].
  split; [exact Hd|]. intros j c Hj. rewrite Hl by (apply nth_error_Some; congruence). now rewrite (nth_error_nth _ _ _ Hj).
Qed.
Print Assumptions C06_completed_upload_visible.

(* The upload of the repository model of C08-C10 (compared with the implementation step by step
   over whole histories) is that program. *)
Theorem C06_upload_is_program : forall r id es E w w',
  (forall k, under_bundle r id k = true -> mget k (w_meta w) = None) ->
  upload r id es E w = (ROk, w') -> w_meta w' = apply_excl (upload_writes r id es E) (w_meta w) /\ w_vmeta w' = w_vmeta w.
Proof.
  intros r id es E w w' _ H. destruct (upload_cases r id es E w) as [E0|[c E0]]; rewrite E0 in H; inversion H.
  now split.
Qed.
Print Assumptions C06_upload_is_program.

(* A label assignment is one write: it changes that label's object and nothing else, so a crash
   leaves either the old state or the complete new one. *)
Theorem C06_label_single_write : forall r n b w,
  w_meta (snd (set_label r n b w)) = w_meta w /\
  forall k, k <> GetArchivePathToLabel r n -> mget k (w_vmeta (snd (set_label r n b w))) = mget k (w_vmeta w).
Proof. exact set_label_frame. Qed.
Print Assumptions C06_label_single_write.

(* Once written, never altered: over every history of operations other than delete-repo, rename,
   delete-files and squash, every metadata object keeps its value. *)
Theorem C06_never_altered : forall E ops w k v, forallb preserving ops = true ->
  mget k (w_meta w) = Some v ->
  mget k (w_meta (fold_left (fun w o => fst (wstep_model E w o)) ops w)) = Some v.
Proof.
  intros E ops w k v Hp. revert k v. change (extends (w_meta w) (w_meta (fold_left (fun w o => fst (wstep_model E w o)) ops w))).
  apply (fold_left_inv (fun w' => extends (w_meta w) (w_meta w'))); [|apply extends_refl].
  intros w' o Ho Hw'. apply (extends_trans _ _ _ Hw'), step_extends. exact (proj1 (forallb_forall _ _) Hp o Ho).
Qed.
Print Assumptions C06_never_altered.

(* the hypotheses are met by a concrete upload of three entries in two file lists, interrupted after one *)
Example C06_premises_satisfiable :
  let es := [{| e_name := "a"; e_hash := "h1"; e_size := 1 |}; {| e_name := "b"; e_hash := "h2"; e_size := 2 |};
             {| e_name := "c"; e_hash := "h3"; e_size := 3 |}] in
  List.length (upload_writes "repo" "id1" es 2) = 3 /\
  List.length (crashed_upload "repo" "id1" es 2 1 []) = 1 /\
  mget (GetArchivePathToBundle "repo" "id1") (crashed_upload "repo" "id1" es 2 2 []) = None /\
  mget (GetArchivePathToBundle "repo" "id1") (crashed_upload "repo" "id1" es 2 3 []) = Some (VBundle "id1" 2).
Proof. vm_compute. repeat split. Qed.
