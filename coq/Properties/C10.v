(* C10 - squash keeps exactly the requested bundles, intact.
   Statements and their derivations from Proofs/SquashProofs.v, Proofs/RepoProofs.v. *)
From Coq Require Import List String NArith Bool.
From DM Require Import Base.Str Gen.Paths Model.Meta Model.RepoOps Proofs.RepoProofs Proofs.SquashProofs.
Import ListNotations.
Open Scope list_scope.

(* squash changes no metadata key outside the bundles it deletes: other repositories, and the file
   lists and descriptors of every kept bundle, stay as they were *)
Theorem C10_squash_frame : forall r n mode sv w k,
  (forall id, under_bundle r id k = false) ->
  mget k (w_meta (snd (squash r n mode sv w))) = mget k (w_meta w).
Proof.
  intros r n mode sv w k Hk. rewrite squash_stores. destruct (_ || _); [reflexivity|].
  apply delete_bundles_frame. intros; apply Hk.
Qed.
Print Assumptions C10_squash_frame.

(* the bundles a squash deletes are never among the n most recent committed ones (n >= 1): in
   particular the most recent committed bundle survives *)
Theorem C10_recent_survive : forall (bs : list string) n labelled id, 0 < n -> NoDup bs ->
  In id (filter (fun id => negb (existsb (String.eqb id) labelled)) (firstn (List.length bs - n) bs)) ->
  ~ In id (skipn (List.length bs - n) bs).
Proof. intros bs n labelled id _ Hnd Hin. now apply (victims_exact bs labelled n id Hnd). Qed.
Print Assumptions C10_recent_survive.

Theorem C10_delete_bundle_frame : forall r id m k, under_bundle r id k = false ->
  mget k (delete_bundle_quiet r id m) = mget k m.
Proof. exact delete_bundle_frame. Qed.
Print Assumptions C10_delete_bundle_frame.

(* the bundles a squash removes are exactly the committed ones that are neither among the n most recent
   nor carry a retained label *)
Theorem C10_victims_exact : forall (bs labelled : list string) n id, NoDup bs ->
  (In id (squash_victims bs labelled n) <->
   In id bs /\ ~ In id (skipn (List.length bs - n) bs) /\ existsb (String.eqb id) labelled = false).
Proof. exact victims_exact. Qed.
Print Assumptions C10_victims_exact.

(* when there is something to remove (more than n committed bundles): every victim's descriptor is gone ... *)
Theorem C10_victims_gone : forall r n mode sv w,
  repo_exists r w = true -> (if Nat.eqb n 0 then 1 else n) < List.length (bundles_of r w) ->
  (forall id, In id (bundles_of r w) -> noslash id = true) ->
  forall id,
  In id (squash_victims (bundles_of r w)
           (match mode with
            | TNone => []
            | TAll => map snd (labels_of r EmptyString w)
            | TSemver => map snd (filter (fun l => existsb (String.eqb (fst l)) sv) (labels_of r EmptyString w))
            end) (if Nat.eqb n 0 then 1 else n)) ->
  mget (GetArchivePathToBundle r id) (w_meta (snd (squash r n mode sv w))) = None.
Proof.
  intros r n mode sv w Hrepo Hmany Hns id Hin. rewrite squash_stores, squash_runs by assumption.
  apply delete_bundles_gone; [exact (Hns _ (victims_incl _ _ _ _ Hin))| |exact Hin].
  intros v Hv. exact (Hns _ (victims_incl _ _ _ _ Hv)).
Qed.
Print Assumptions C10_victims_gone.

(* ... and every other bundle keeps its descriptor and all of its file lists, byte for byte *)
Theorem C10_kept_intact : forall r n mode sv w,
  repo_exists r w = true -> (if Nat.eqb n 0 then 1 else n) < List.length (bundles_of r w) ->
  (forall id, In id (bundles_of r w) -> noslash id = true) ->
  forall id k, noslash id = true ->
  ~ In id (squash_victims (bundles_of r w)
             (match mode with
              | TNone => []
              | TAll => map snd (labels_of r EmptyString w)
              | TSemver => map snd (filter (fun l => existsb (String.eqb (fst l)) sv) (labels_of r EmptyString w))
              end) (if Nat.eqb n 0 then 1 else n)) ->
  under_bundle r id k = true ->
  mget k (w_meta (snd (squash r n mode sv w))) = mget k (w_meta w).
Proof.
  intros r n mode sv w _ _ Hns id k Hid Hnot Hk. rewrite squash_stores. destruct (_ || _); [reflexivity|].
  apply delete_bundles_frame. intros v Hv. apply (other_bundle_not_under r v id); auto.
  - exact (Hns _ (victims_incl _ _ _ _ Hv)).
  - intros ->. contradiction.
Qed.
Print Assumptions C10_kept_intact.

(* labels: nothing outside the repository's labels changes; a label whose bundle is still there is
   untouched; a label whose bundle is gone is removed *)
Theorem C10_labels_frame : forall r n mode sv w k,
  (forall nm, k <> GetArchivePathToLabel r nm) ->
  mget k (w_vmeta (snd (squash r n mode sv w))) = mget k (w_vmeta w).
Proof.
  intros r n mode sv w k Hk. rewrite squash_stores. destruct (_ || _); [reflexivity|].
  apply prune_labels_frame. intros; apply Hk.
Qed.
Print Assumptions C10_labels_frame.

Theorem C10_label_kept : forall r n mode sv w nm,
  noslash r = true -> noslash nm = true ->
  let w1 := with_meta w (w_meta (snd (squash r n mode sv w))) in
  let kept := bundles_of r w1 in
  let ls := labels_of r EmptyString w1 in
  (forall l, In l ls -> noslash (fst l) = true) ->
  (forall l, In l ls -> fst l = nm -> existsb (String.eqb (snd l)) kept = true) ->
  mget (GetArchivePathToLabel r nm) (w_vmeta (snd (squash r n mode sv w))) = mget (GetArchivePathToLabel r nm) (w_vmeta w).
Proof.
  intros r n mode sv w nm Hr Hnm. rewrite squash_stores. destruct (_ || _); [reflexivity|].
  intros w1 kept ls Hls Hall. subst w1 kept ls. cbn [w_meta with_vmeta with_meta] in *.
  apply prune_labels_frame. intros l Hl Hgone Eq.
  apply label_key_inj in Eq; auto. destruct Eq as [_ Eq]. rewrite (Hall l Hl (eq_sym Eq)) in Hgone. discriminate.
Qed.
Print Assumptions C10_label_kept.

Theorem C10_label_removed : forall r n mode sv w l,
  repo_exists r w = true -> (if Nat.eqb n 0 then 1 else n) < List.length (bundles_of r w) ->
  let w1 := with_meta w (w_meta (snd (squash r n mode sv w))) in
  In l (labels_of r EmptyString w1) -> existsb (String.eqb (snd l)) (bundles_of r w1) = false ->
  mget (GetArchivePathToLabel r (fst l)) (w_vmeta (snd (squash r n mode sv w))) = None.
Proof.
  intros r n mode sv w l Hrepo Hmany. rewrite squash_stores, squash_runs by assumption.
  intros w1 Hl Hgone. now apply prune_labels_gone.
Qed.
Print Assumptions C10_label_removed.
