(* C11 - diamond commit merges splits by latest write, keeping every losing version.
   Statements and their derivations from Proofs/MergeProofs.v, Base/Ord.v.  Model/Merge.v is compared
   with the merger of pkg/core/diamond_commit.go - handed file lists in chosen arrival orders -
   and with Diamond.Commit on every run. *)
From Coq Require Import List String NArith Bool Permutation.
From DM Require Import Base.Str Base.Ord Model.Merge Proofs.MergeProofs.
Import ListNotations.
Open Scope list_scope.

(* The result does not depend on the order in which the commit receives the entries of the splits'
   file lists: every permutation of the arrivals, in every mode, gives the same outcome. *)
Theorem C11_order_independent : forall mode l l', Permutation l l' -> merge mode l = merge mode l'.
Proof. intros mode l l' H. unfold merge. now rewrite (to_set_perm ord_ver l l' H). Qed.
Print Assumptions C11_order_independent.

(* For each path some split uploaded, the winner is one of the uploaded versions of that path and
   none has a later upload time. *)
Theorem C11_winner_is_latest : forall l p v, In v l -> v_path v = p ->
  exists w, winner p (to_set ord_ver l) = Some w /\ In w l /\ v_path w = p /\ (v_time v <= v_time w)%N.
Proof.
  intros l p v Hv Hp. apply (to_set_In ord_ver) in Hv.
  destruct (winner p (to_set ord_ver l)) as [w|] eqn:E; [|apply winner_none in E; destruct E; apply paths_of_In; eauto].
  destruct (winner_spec _ _ _ E) as (Hw & Hwp & Hmax). apply to_set_In in Hw.
  exists w. split; [reflexivity|]. split; [exact Hw|]. split; [exact Hwp|]. now apply not_more_recent_time, Hmax.
Qed.
Print Assumptions C11_winner_is_latest.

(* The main tree is the same in every mode: whenever the commit succeeds, every name outside
   .conflicts/ and .checkpoints/ holds the winner of that path (and nothing if no split uploaded it). *)
Theorem C11_main_tree_every_mode : forall mode l es p, merge mode l = MOk es ->
  starts_with ".conflicts/" p = false -> starts_with ".checkpoints/" p = false ->
  lookup p es = option_map (fun w => (v_hash w, v_size w)) (winner p (to_set ord_ver l)).
Proof.
  intros mode l es p H H1 H2. unfold merge in H. set (S := to_set ord_ver l) in *.
  destruct mode; [| | |destruct (kept "" S); [|discriminate]]; injection H as <-.
  - apply lookup_mains.
  - rewrite (lookup_outside_kept ".checkpoints" S p H2). apply lookup_mains.
  - rewrite (lookup_outside_kept ".conflicts" S p H1). apply lookup_mains.
  - apply lookup_mains.
Qed.
Print Assumptions C11_main_tree_every_mode.

(* What is kept under <dir>/<split>/<path>: exactly, for each path, the most recent version of every
   other split whose content differs from the winner's - filed under the split that uploaded it. *)
Theorem C11_kept_exact : forall dir S e, In e (kept dir S) <->
  exists p v, In p (paths_of S) /\ In v (conflicts_of p S) /\ e = (deconflict dir (v_split v) p, (v_hash v, v_size v)).
Proof. exact kept_exact. Qed.
Print Assumptions C11_kept_exact.

Theorem C11_conflicts_exact : forall p S v, In v (conflicts_of p S) <->
  exists w, winner p S = Some w /\ In v (split_latests p S) /\ v_split v <> v_split w /\ v_hash v <> v_hash w.
Proof. exact conflicts_exact. Qed.
Print Assumptions C11_conflicts_exact.

(* Identical contents never count as conflicts. *)
Theorem C11_identical_never_conflict : forall p S v w, winner p S = Some w -> In v (conflicts_of p S) -> v_hash v <> v_hash w.
Proof. intros p S v w Hw Hv. apply conflicts_exact in Hv. destruct Hv as (w' & E & _ & _ & H). congruence. Qed.
Print Assumptions C11_identical_never_conflict.

(* Ignore mode adds no path that no split uploaded. *)
Theorem C11_ignore_adds_nothing : forall l es p, merge MIgnore l = MOk es -> lookup p es <> None -> In p (map v_path l).
Proof.
  intros l es p H Hp. injection H as <-. rewrite lookup_mains in Hp.
  destruct (winner p (to_set ord_ver l)) as [w|] eqn:E; [|now destruct Hp].
  apply winner_spec in E. destruct E as (HS & <- & _). apply to_set_In in HS. now apply in_map.
Qed.
Print Assumptions C11_ignore_adds_nothing.

(* Forbid mode refuses exactly when some path has a conflict. *)
Theorem C11_forbid_refuses_iff : forall l, merge MForbid l = MErr <-> exists p v, In v (conflicts_of p (to_set ord_ver l)).
Proof.
  intros l. unfold merge. set (S := to_set ord_ver l). destruct (kept "" S) as [|e k] eqn:E.
  - split; [discriminate|]. intros (p & v & Hv). apply (conflict_is_kept "") in Hv. fold S in Hv. rewrite E in Hv. destruct Hv.
  - split; [intros _|reflexivity].
    destruct (proj1 (kept_exact "" S e)) as (p & v & _ & Hv & _); [rewrite E; now left|eauto].
Qed.
Print Assumptions C11_forbid_refuses_iff.

(* A diamond with a single split commits, in every mode, the bundle a plain upload of the same
   files has: each file under its own name, nothing else. *)
Theorem C11_single_split_is_plain : forall l s mode,
  (forall v, In v l -> v_split v = s) -> NoDup (map v_path l) ->
  exists es, merge mode l = MOk es /\
    (forall v, In v l -> lookup (v_path v) es = Some (v_hash v, v_size v)) /\
    (forall p, ~ In p (map v_path l) -> lookup p es = None).
Proof.
  intros l s mode Hs Hnd. exists (by_name (mains (to_set ord_ver l))). split; [|split].
  - unfold merge. destruct mode; rewrite ?(single_split_kept l s) by exact Hs; now rewrite ?app_nil_r.
  - intros v Hv. now rewrite lookup_mains, winner_unique_path.
  - intros p Hp. rewrite lookup_mains, (proj2 (winner_none p _)); [reflexivity|].
    rewrite paths_of_In. intros (v & Hv & <-). apply to_set_In in Hv. now apply Hp, in_map.
Qed.
Print Assumptions C11_single_split_is_plain.

(* a concrete merge: three splits, the content of the oldest and the newest identical *)
Example C11_example :
  let l := [mkver "p" "s1" 1 "A" 1; mkver "p" "s2" 2 "B" 1; mkver "p" "s3" 3 "A" 1] in
  merge MConflicts l = MOk [(".conflicts/s2/p", ("B", 1%N)); ("p", ("A", 1%N))] /\
  merge MConflicts (rev l) = merge MConflicts l /\
  merge MForbid l = MErr /\ merge MIgnore l = MOk [("p", ("A", 1%N))].
Proof. vm_compute. repeat split. Qed.
