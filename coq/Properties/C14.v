(* C14 - purging removes exactly the unreferenced old blobs, one job at a time.
   Statements and their derivations from Proofs/PurgeProofs.v. *)
From Coq Require Import List String NArith Bool.
From DM Require Import Model.Meta Model.Purge Proofs.PurgeProofs.
Import ListNotations.
Open Scope string_scope.
Open Scope list_scope.

(* A build that is not resumed lists nothing but keys of the files it scanned... *)
Theorem C14_index_exact : forall n ops k, In k (index_of (last_session n false ops [])) ->
  exists f, In f (files_of ops) /\ In k (keys_of f).
Proof. intros n ops k H. apply index_sound in H. destruct H as [[[=] _]|H]; exact H. Qed.
Print Assumptions C14_index_exact.

(* ... and all of them (C13_index_complete with no earlier session). *)
Theorem C14_index_complete : forall F n ops f k, 0 < n -> consistent F ->
  (forall g, In g (files_of ops) -> In g F) -> In f (files_of ops) -> In k (keys_of f) ->
  In k (index_of (last_session n false ops [])).
Proof. intros F n ops f k. exact (index_complete F n false ops [] f k). Qed.
Print Assumptions C14_index_complete.

(* delete-unused leaves exactly the blobs that are indexed or newer than the index. *)
Theorem C14_delete_unused_exact : forall index blobs k,
  In k (delete_unused index blobs) <-> exists nw, In (k, nw) blobs /\ (In k index \/ nw = true).
Proof. exact delete_unused_exact. Qed.
Print Assumptions C14_delete_unused_exact.

(* The purge lock is a create-if-absent object: once it exists, another acquisition is refused and
   changes nothing. *)
Theorem C14_lock_exclusive : forall k v v' m, mget k m = Some v ->
  mput k v' true m = (PExists, m).
Proof. intros k v v' m H. unfold mput. now rewrite H. Qed.
Print Assumptions C14_lock_exclusive.
