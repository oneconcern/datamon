(* C13 - purging never deletes data that a committed bundle needs.
   Statements and their derivations from Proofs/PurgeProofs.v.  Model/Purge.v is compared with
   PurgeBuildReverseIndex / PurgeDeleteUnused - interrupted at every index chunk write and resumed,
   and under injected transient store failures - on every run. *)
From Coq Require Import List String NArith Bool.
From DM Require Import Model.Purge Proofs.PurgeProofs.
Import ListNotations.
Open Scope string_scope.
Open Scope list_scope.

(* The index lists every key (root and leaves) of every file scanned by the session that completes -
   whatever earlier sessions did before they died, wherever they died, whichever chunks they had
   uploaded, and whether the last session was resumed from those chunks or not.  consistent: a root
   key stands for the same leaves wherever it occurs. *)
Theorem C13_index_complete : forall F n resume ops chunks f k, 0 < n -> consistent F ->
  (forall g, In g (files_of ops) -> In g F) ->
  In f (files_of ops) -> In k (keys_of f) ->
  In k (index_of (last_session n resume ops chunks)).
Proof. exact index_complete. Qed.
Print Assumptions C13_index_complete.

(* delete-unused keeps every blob whose key is in the index or that is newer than the index: a bundle
   whose keys are all indexed (committed before the index was started) or all newer (uploaded after
   it: new blobs are written, adopted ones are refreshed) keeps every blob it needs. *)
Theorem C13_delete_unused_keeps_bundle : forall index blobs (ks : list string),
  (forall k, In k ks -> exists nw, In (k, nw) blobs /\ (In k index \/ nw = true)) ->
  forall k, In k ks -> In k (delete_unused index blobs).
Proof. intros index blobs ks H k Hk. apply delete_unused_exact. now apply H. Qed.
Print Assumptions C13_delete_unused_keeps_bundle.

(* both steps together: a file scanned by the index build - whatever earlier sessions did before they
   died and whether the build was resumed - keeps every blob it has when delete-unused runs with that
   index ... *)
Theorem C13_purge_keeps_scanned : forall F n resume ops chunks blobs f, 0 < n -> consistent F ->
  (forall g, In g (files_of ops) -> In g F) -> In f (files_of ops) ->
  (forall k, In k (keys_of f) -> exists nw, In (k, nw) blobs) ->
  forall k, In k (keys_of f) -> In k (delete_unused (index_of (last_session n resume ops chunks)) blobs).
Proof.
  intros F n resume ops chunks blobs f Hn Hc HF Hf Hb k Hk. apply delete_unused_exact.
  destruct (Hb k Hk) as [nw Hnw]. exists nw. split; [exact Hnw|]. left. exact (index_complete F n resume ops chunks f k Hn Hc HF Hf Hk).
Qed.
Print Assumptions C13_purge_keeps_scanned.

(* ... and a file uploaded after the index was started, all of whose blobs were written or refreshed
   since, keeps them whatever the index holds *)
Theorem C13_purge_keeps_newer : forall index blobs (ks : list string),
  (forall k, In k ks -> In (k, true) blobs) -> forall k, In k ks -> In k (delete_unused index blobs).
Proof. intros index blobs ks H k Hk. apply delete_unused_exact. exists true. split; [now apply H|now right]. Qed.
Print Assumptions C13_purge_keeps_newer.

(* non-vacuity: a two-leaf file whose root was uploaded by a session that died before the leaves were *)
Example C13_resume_example :
  let f := {| fk_root := "r"; fk_leaves := ["l1"; "l2"] |} in
  let dead := dead_session 1 false [OScan f; OFlush] [] in
  dead = [["r"]] /\
  index_of (last_session 1 true [OScan f] dead) = ["r"; "l1"; "l2"].
Proof. vm_compute. split; reflexivity. Qed.
