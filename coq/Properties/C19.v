(* C19 - the write-ahead log returns what was appended, in token order.
   Statements and their derivations from Proofs/WalProofs.v, Base/ListFacts.v.
   Model/Wal.v is compared with pkg/wal over a store that lists from a start key, with concurrent
   appends and a clock the harness moves, on every run. *)
From Coq Require Import List NArith Bool Arith String Lia Sorted.
From DM Require Import Base.ListFacts Gen.Consts Model.Wal Proofs.WalProofs.
Import ListNotations.
Open Scope N_scope.

(* Tokens issued in a later second sort after every token issued in an earlier one, whatever their
   random parts; the time of a token is the time it was issued at. *)
Theorem C19_tokens_follow_time : forall t1 r1 t2 r2, t1 < t2 -> token_of t1 r1 < token_of t2 r2.
Proof.
  intros t1 r1 t2 r2 H. unfold token_of. pose proof two128_pos.
  assert (r1 mod two128 < two128) by (apply N.mod_lt; lia).
  apply N.lt_le_trans with ((t1 + 1) * two128); [rewrite N.mul_add_distr_r, N.mul_1_l; lia|].
  apply N.le_trans with (t2 * two128); [apply N.mul_le_mono_r; lia|apply N.le_add_r].
Qed.
Print Assumptions C19_tokens_follow_time.

Theorem C19_time_of_token : forall t r, time_of (token_of t r) = t.
Proof.
  intros t r. unfold time_of, token_of. pose proof two128_pos.
  rewrite N.div_add_l by lia. rewrite N.div_small by (apply N.mod_lt; lia). lia.
Qed.
Print Assumptions C19_time_of_token.

(* After any history of appends with unique tokens the log holds exactly the appended entries, token
   and payload unchanged, in token order. *)
Theorem C19_log_holds_appended : forall es e, NoDup (map fst es) -> (In e (add_all es) <-> In e es).
Proof.
  induction es as [|[t p] es IH] using rev_ind; intros e Hnd; [reflexivity|].
  rewrite map_app in Hnd. apply NoDup_remove in Hnd. rewrite app_nil_r in Hnd. destruct Hnd as [Hnd Ht].
  rewrite add_all_snoc, in_app_iff. split.
  - intros H. apply append_only_adds in H. destruct H as [->|H]; [now right; left|left; now apply IH].
  - intros [H|[<-|[]]]; [apply append_keeps; now apply IH|].
    apply append_new. intros q Hq. apply Ht. apply IH in Hq; [|exact Hnd]. apply (in_map fst _ _ Hq).
Qed.
Print Assumptions C19_log_holds_appended.

Theorem C19_log_sorted : forall es, sorted (add_all es).
Proof. intros es. unfold add_all. apply fold_left_inv; [intros l e _; apply append_sorted|constructor]. Qed.
Print Assumptions C19_log_sorted.

(* A listing is in strict token order (hence without duplicates), ... *)
Theorem C19_listing_sorted : forall from max l, sorted l -> sorted (list_entries from max l).
Proof. intros from max l Hl. unfold list_entries. now apply StronglySorted_firstn, StronglySorted_filter. Qed.
Print Assumptions C19_listing_sorted.

(* ... returns stored entries of its window only, ... *)
Theorem C19_listing_sound : forall from max l e, In e (list_entries from max l) -> In e l /\ list_start from <= fst e.
Proof.
  intros from max l e H. unfold list_entries in H. apply In_firstn in H. apply filter_In in H.
  destruct H as [H1 H2]. split; [exact H1|]. now apply N.leb_le.
Qed.
Print Assumptions C19_listing_sound.

(* ... every one of them when they fit in the requested maximum (capped at walMaxEntriesPerList), ... *)
Theorem C19_listing_complete : forall from max l e,
  Nat.le (List.length (filter (fun e : N * string => list_start from <=? fst e) l)) (Nat.min max walMaxEntriesPerList) ->
  In e l -> list_start from <= fst e -> In e (list_entries from max l).
Proof.
  intros from max l e Hlen He Hs. unfold list_entries. rewrite firstn_all2 by exact Hlen.
  apply filter_In. split; [exact He|]. now apply N.leb_le.
Qed.
Print Assumptions C19_listing_complete.

(* ... and otherwise those with the smallest tokens. *)
Theorem C19_listing_prefix : forall from max l, exists rest,
  filter (fun e : N * string => list_start from <=? fst e) l = list_entries from max l ++ rest.
Proof. intros. unfold list_entries. eexists. symmetry. apply firstn_skipn. Qed.
Print Assumptions C19_listing_prefix.

(* The window includes every entry issued no earlier than the look-back period before the given token. *)
Theorem C19_lookback_in_window : forall from tok, time_of from - lookback <= time_of tok -> list_start from <= tok.
Proof.
  intros from tok H. unfold list_start, time_of in *. pose proof two128_pos.
  apply N.le_trans with (tok / two128 * two128).
  - apply N.mul_le_mono_r. exact H.
  - rewrite N.mul_comm. apply N.mul_div_le. lia.
Qed.
Print Assumptions C19_lookback_in_window.
