(* C01 - the content store returns exactly the bytes that were stored.
   Statements and their derivations from Proofs/CafsStore.v, Proofs/CafsPut.v, Proofs/CafsRead.v
   and Proofs/CafsExample.v.
   H is any hash with 64-byte digests, L any positive leaf size. *)
From Coq Require Import List NArith Arith Bool.
From DM Require Import Model.Cafs Proofs.CafsStore Proofs.CafsPut Proofs.CafsRead Proofs.CafsExample.
Import ListNotations.

(* Whatever chunks the source hands over and whatever the store holds: Put terminates, reports
   the content length, and lays the content out as leaves of exactly L bytes (the last one
   shorter and non-empty) whose concatenation is the content. *)
Theorem C01_put : forall H L, 0 < L -> forall chunks s,
  exists r, put H L chunks s = Ok r /\
    pr_written r = length (concat chunks) /\
    pr_key r = tree_key H L (concat chunks) /\
    pr_keys r = keys_of_leaves H L 0 (split_leaves L (concat chunks)).
Proof.
  intros H L Lpos chunks s. exists (put_of H L (concat chunks) s).
  split; [now apply put_eq|]. repeat split.
Qed.
Print Assumptions C01_put.

Theorem C01_chunking_irrelevant : forall H L, 0 < L -> forall chunks s,
  match put H L chunks s, put H L [concat chunks] s with
  | Ok r1, Ok r2 => pr_key r1 = pr_key r2 /\ pr_keys r1 = pr_keys r2 /\ pr_written r1 = pr_written r2
  | _, _ => False
  end.
Proof.
  intros H L Lpos chunks s. rewrite !(put_eq H L Lpos). cbn [concat]. rewrite app_nil_r. auto.
Qed.
Print Assumptions C01_chunking_irrelevant.

Theorem C01_layout : forall L, 0 < L -> forall c, concat (split_leaves L c) = c.
Proof. exact split_leaves_concat. Qed.
Print Assumptions C01_layout.

(* The full statement.  For every chunking of the source, every store that does not already hold
   a conflicting non-empty blob under one of the object's keys (clean), and a hash none of whose
   honest inputs for this content collides with any other input (nocoll): Put succeeds and
   reports the content length; ReadAt returns the requested window for every offset and length
   (past EOF: nothing); sequential Read with any positive buffer sizes and any legal behaviour of
   the leaf streams delivers exactly the content; WriteTo through a WriterAt, leaves copied in any
   order, leaves exactly the content in the destination. *)
Theorem C01_roundtrip : forall H L, 0 < L ->
  (forall l o d b x, length (H l o d b x) = KS) ->
  forall chunks s,
  nocoll H L (split_leaves L (concat chunks)) ->
  clean s (blob_writes H L (split_leaves L (concat chunks))) ->
  exists r, put H L chunks s = Ok r /\
    let c := concat chunks in let s' := pr_store r in let key := pr_key r in
    pr_written r = length c /\
    (forall off want, read_at H L key s' off want = Ok (firstn want (skipn off c))) /\
    (forall bufs orc, Forall (fun k => 0 < k) bufs -> length c < length bufs ->
       read_seq H L key s' bufs orc = Ok c) /\
    (forall jobs, (forall j, In j jobs <-> In j (index_from 0 (pr_keys r))) ->
       exists f', write_to_at H L s' (length (pr_keys r)) jobs [] = Ok f' /\
                  forall x, file_get f' x = nth_error c x).
Proof.
  intros H L Lpos H_len chunks s Hnc Hc. exists (put_of H L (concat chunks) s).
  split; [now apply put_eq|]. cbv zeta.
  assert (Hh : holds H L (pr_store (put_of H L (concat chunks) s)) (concat chunks))
    by (apply (put_holds H L Lpos chunks s); auto using put_eq).
  split; [reflexivity|]. cbn [put_of pr_key pr_keys]. rewrite keys_length. split; [|split]; intros.
  - now apply read_at_holds.
  - now apply read_seq_holds.
  - now apply write_to_at_holds.
Qed.
Print Assumptions C01_roundtrip.

(* the premises are satisfiable: a concrete 64-byte hash, content and store meet them *)
Theorem C01_premises_satisfiable :
  (forall l o d b x, length (H0 l o d b x) = KS) /\
  nocoll H0 2 (split_leaves 2 c0) /\
  clean [] (blob_writes H0 2 (split_leaves 2 c0)).
Proof. exact hypotheses_satisfiable. Qed.
Print Assumptions C01_premises_satisfiable.
