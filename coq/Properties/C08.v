(* C08 - labels resolve to the bundle most recently assigned to them.
   Statements and their derivations from Proofs/RepoProofs.v, Proofs/PathsProofs.v. *)
From Coq Require Import List String NArith Bool.
From DM Require Import Base.Str Gen.Paths Model.PathsCheck Model.Meta Model.RepoOps Proofs.PathsProofs Proofs.RepoProofs.
Import ListNotations.
Open Scope list_scope.

(* an accepted assignment is what the label resolves to afterwards *)
Theorem C08_get_after_set : forall r n b w,
  repo_exists r w = true -> label_elem_ok n = true -> b <> EmptyString ->
  fst (set_label r n b w) = ROk /\ get_label r n (snd (set_label r n b w)) = Some b.
Proof.
  intros r n b w Hr Hn Hb. unfold set_label. rewrite Hr, Hn, (proj2 (String.eqb_neq b EmptyString) Hb). cbn [negb orb fst snd].
  split; [reflexivity|]. unfold get_label, repo_exists in *. cbn [w_meta w_vmeta with_vmeta]. rewrite Hr.
  now rewrite mget_mput_same.
Qed.
Print Assumptions C08_get_after_set.

(* setting a label changes no bundle or repository key and no other label key *)
Theorem C08_set_frame : forall r n b w,
  w_meta (snd (set_label r n b w)) = w_meta w /\
  forall k, k <> GetArchivePathToLabel r n -> mget k (w_vmeta (snd (set_label r n b w))) = mget k (w_vmeta w).
Proof. exact set_label_frame. Qed.
Print Assumptions C08_set_frame.

(* ... in particular every other label of every repository (also repositories whose names share a
   prefix) resolves as before *)
Theorem C08_other_labels : forall r n b w r' n',
  noslash r = true -> noslash n = true -> noslash r' = true -> noslash n' = true -> (r, n) <> (r', n') ->
  get_label r' n' (snd (set_label r n b w)) = get_label r' n' w.
Proof.
  intros r n b w r' n' Hr Hn Hr' Hn' Hne. destruct (set_label_frame r n b w) as [Hm Hv].
  unfold get_label, repo_exists. rewrite Hm. destruct (negb (mhas _ (w_meta w))); [reflexivity|].
  rewrite Hv; [reflexivity|]. intros E. apply label_key_inj in E; auto. destruct E. congruence.
Qed.
Print Assumptions C08_other_labels.

Theorem C08_get_after_delete : forall r n w w', delete_label r n true w = (ROk, w') -> get_label r n w' = None.
Proof.
  intros r n w w' H. unfold delete_label in H. destruct (true && negb (repo_exists r w)); [discriminate|].
  pose proof (mget_mdelete_same (GetArchivePathToLabel r n) (w_vmeta w)) as Hd.
  destruct (mdelete (GetArchivePathToLabel r n) (w_vmeta w)) as [[|] v]; [|discriminate]. inversion H.
  unfold get_label. destruct (negb _); [reflexivity|]. cbn [w_vmeta with_vmeta snd] in *. now rewrite Hd.
Qed.
Print Assumptions C08_get_after_delete.

(* names the API accepts contain no '/', hence build keys that parse back to the same name (C20) *)
Theorem C08_accepted_names : forall n, label_elem_ok n = true -> noslash n = true.
Proof. intros n H. unfold label_elem_ok in H. apply andb_prop in H. tauto. Qed.
Print Assumptions C08_accepted_names.

(* every name of the documented alphabet (model.ValidateLabel, C20) is accepted *)
Theorem C08_documented_names_accepted : forall n, label_name_ok n = true -> label_elem_ok n = true.
Proof.
  intros n H. unfold label_elem_ok. rewrite (proj2 (valid_names_noslash n) H).
  unfold label_name_ok in H. apply andb_prop in H. destruct H as [Hne Hchars]. rewrite Hne.
  destruct (String.eqb n ".") eqn:E1; [apply String.eqb_eq in E1; subst; discriminate Hchars|].
  destruct (String.eqb n "..") eqn:E2; [apply String.eqb_eq in E2; subst; discriminate Hchars|]. reflexivity.
Qed.
Print Assumptions C08_documented_names_accepted.
