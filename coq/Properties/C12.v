(* C12 - a diamond commits at most once, from completed splits only.
   Statements and their derivations from Proofs/DiamondProofs.v, Proofs/DiamondSerial.v, Proofs/DiamondCollect.v.
   The protocol model (Model/Diamond.v) is replayed on schedules observed on the implementation, whose
   actors are gated at every decision-relevant store access, on every run.

   The first clause of the property - at most one bundle per diamond - is FALSE of the protocol as
   implemented: C12_at_most_one_bundle_refuted.  Both witnesses are replayed on the implementation
   on every run and are recorded as a known finding.  Everything else is proved. *)
From Coq Require Import List.
From DM Require Import Model.Diamond Proofs.DiamondProofs Proofs.DiamondSerial Proofs.DiamondCollect.
Import ListNotations.
Open Scope list_scope.

(* Two commits that both read the diamond as ready before either writes its final descriptor both
   publish a bundle. *)
Theorem C12_at_most_one_bundle_refuted :
  exists actors es, all_fresh actors /\ List.length (d_bundles (run es (init actors))) = 2.
Proof.
  exists [fresh_split 0 0; fresh_commit; fresh_commit].
  exists (map EStep [0; 0; 0; 0; 0; 1; 2; 1; 2; 1; 2; 1; 2; 1; 2]).
  split; [intros a [<-|[<-|[<-|[]]]]; reflexivity|vm_compute; reflexivity].
Qed.
Print Assumptions C12_at_most_one_bundle_refuted.

(* A commit that crashes between the bundle descriptor and the diamond's final descriptor, retried. *)
Theorem C12_at_most_one_bundle_refuted_by_retry :
  exists actors es, all_fresh actors /\ List.length (d_bundles (run es (init actors))) = 2.
Proof.
  exists [fresh_split 0 0; fresh_commit; fresh_commit].
  exists (map EStep [0; 0; 0; 0; 0; 1; 1; 1; 1] ++ [ECrash 1] ++ map EStep [2; 2; 2; 2; 2]).
  split; [intros a [<-|[<-|[<-|[]]]]; reflexivity|vm_compute; reflexivity].
Qed.
Print Assumptions C12_at_most_one_bundle_refuted_by_retry.

(* What does hold of "at most once": the diamond's final descriptor is written at most once, under
   every schedule of every set of actors, crashes included... *)
Theorem C12_terminal_written_once : forall es st t, d_term st = Some t -> d_term (run es st) = Some t.
Proof.
  intros es st t. apply (run_stable (fun st => d_term st = Some t)).
  intros e st'. apply (w_term _ _ _ (event_writes e st')).
Qed.
Print Assumptions C12_terminal_written_once.

(* ... and a commit that starts once the diamond is done or canceled never publishes a bundle: every
   bundle comes from a commit that read the diamond as ready before it was terminated. *)
Theorem C12_late_commit_writes_no_bundle : forall es i st t c w, d_term st = Some t ->
  nth_error (d_actors st) i = Some (ACommit CReady c w) -> (forall srcs, ~ In (i, srcs) (d_bundles st)) ->
  forall srcs, ~ In (i, srcs) (d_bundles (run es st)).
Proof.
  intros es i st t c w Ht Ha Hb. apply (run_stable (quiet_commit i) (fun e => quiet_commit_event e i) es).
  split; [congruence|split; [exists CReady, c, w; auto|exact Hb]].
Qed.
Print Assumptions C12_late_commit_writes_no_bundle.

(* ... so that commits that do not overlap - each runs from its first to its last step with no other
   actor in between and without crashing - produce at most one bundle, whatever split runs and
   cancellations (and their crashes) do around them. *)
Theorem C12_serial_commits_one_bundle : forall items actors, all_fresh actors ->
  items_ok_run items (init actors) ->
  List.length (d_bundles (fold_left apply_item items (init actors))) <= 1.
Proof. intros items actors Hf Hok. apply bc_le, between_items; [now apply between_init|exact Hok]. Qed.
Print Assumptions C12_serial_commits_one_bundle.

(* Commits, cancellations and new split runs are refused once the diamond is done or canceled: the
   actor's first access is refused, it writes nothing and takes no further step. *)
Theorem C12_refused_once_terminated : forall i st a t, d_term st = Some t -> nth_error (d_actors st) i = Some a ->
  next_action a = Some KReady ->
  snd (step i st) = false /\ store_eq (fst (step i st)) st /\
  exists a', nth_error (d_actors (fst (step i st))) i = Some a' /\ next_action a' = None.
Proof.
  intros i st a t Ht Ha Hn.
  rewrite !step_eq, Ha. destruct a as [[] c w|[] w|s g [] w]; try discriminate Hn; cbn [step_of]; rewrite Ht;
    (split; [reflexivity|split; [apply set_actor_store|eexists; split; [exact (nth_set_actor_same _ _ _ _ Ha)|reflexivity]]]).
Qed.
Print Assumptions C12_refused_once_terminated.

(* A completed split cannot be rerun, and the run recorded as completing it never changes. *)
Theorem C12_rerun_refused : forall i st s g w g0, done_of s st = Some g0 ->
  nth_error (d_actors st) i = Some (ASplit s g SReadSplit w) ->
  snd (step i st) = false /\ store_eq (fst (step i st)) st /\
  nth_error (d_actors (fst (step i st))) i = Some (ASplit s g SFin w).
Proof.
  intros i st s g w g0 Hd Ha.
  rewrite !step_eq, Ha. cbn [step_of]. rewrite Hd.
  split; [reflexivity|]. split; [apply set_actor_store|exact (nth_set_actor_same _ _ _ _ Ha)].
Qed.
Print Assumptions C12_rerun_refused.

Theorem C12_split_completed_once : forall es st s g, done_of s st = Some g -> done_of s (run es st) = Some g.
Proof.
  intros es st s g. apply (run_stable (fun st => done_of s st = Some g)).
  intros e st'. apply event_done_stable.
Qed.
Print Assumptions C12_split_completed_once.

(* Every bundle ever published - under every interleaving and crash - holds files of runs recorded as
   completing their split only, and those runs wrote all their file lists. *)
Theorem C12_bundle_sources_recorded : forall actors es b srcs s g, all_fresh actors ->
  In (b, srcs) (d_bundles (run es (init actors))) -> In (s, g) srcs ->
  In (s, g) (d_done (run es (init actors))) /\ In (s, g) (d_lists (run es (init actors))).
Proof.
  intros actors es b srcs s g Hf Hb Hs. destruct (run_stable Inv event_inv es _ (init_inv _ Hf)) as [I1 I2 _].
  split; [eapply I2; eauto|apply I1; eapply I2; eauto].
Qed.
Print Assumptions C12_bundle_sources_recorded.

(* Published bundles are never altered by the protocol. *)
Theorem C12_bundles_stable : forall es st b, In b (d_bundles st) -> In b (d_bundles (run es st)).
Proof.
  intros es st b. apply (run_stable (fun st => In b (d_bundles st))). intros e st' H.
  destruct (w_bundles _ _ _ (event_writes e st')) as [->|(i & c & w & _ & _ & ->)]; [exact H|now right].
Qed.
Print Assumptions C12_bundles_stable.

(* the bundle of a commit holds exactly what the commit collected, and that is exactly the set of runs
   recorded as completing their split at the moment it collected: the collection step takes d_done as
   it is, nothing changes the collection afterwards, and every bundle descriptor carries the
   collection of the commit that wrote it *)
Theorem C12_collect_exact : forall i st c w ds, i < List.length (d_actors st) ->
  nth_error (d_actors st) i = Some (ACommit CCollect c w) -> d_done st = ds -> ds <> [] ->
  nth_error (d_actors (fst (step i st))) i = Some (ACommit CWriteLists ds w) /\
  d_done (fst (step i st)) = ds /\ d_bundles (fst (step i st)) = d_bundles st.
Proof.
  intros i st c w ds Hi Ha Hd Hne. rewrite !step_eq, Ha. cbn [step_of]. rewrite Hd. destruct ds as [|x ds']; [congruence|].
  split; [exact (nth_set_actor_same _ _ _ _ Ha)|split; [exact Hd|reflexivity]].
Qed.
Print Assumptions C12_collect_exact.

Theorem C12_collection_frozen : forall es st i pc c w,
  nth_error (d_actors st) i = Some (ACommit pc c w) -> past_collect pc = true ->
  exists pc' w', nth_error (d_actors (run es st)) i = Some (ACommit pc' c w') /\ past_collect pc' = true.
Proof.
  intros es st i pc c w Ha Hpc. apply (run_stable (collected i c) (fun e => collected_event e i c)).
  exists pc, w. auto.
Qed.
Print Assumptions C12_collection_frozen.

Theorem C12_bundle_is_the_collection : forall actors es b srcs,
  In (b, srcs) (d_bundles (run es (init actors))) ->
  exists pc w, nth_error (d_actors (run es (init actors))) b = Some (ACommit pc srcs w) /\ past_collect pc = true.
Proof.
  intros actors es.
  apply (run_stable (fun st => forall b srcs, In (b, srcs) (d_bundles st) -> collected b srcs st) bundles_collected_event).
  intros b srcs [].
Qed.
Print Assumptions C12_bundle_is_the_collection.
