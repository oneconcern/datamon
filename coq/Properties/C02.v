(* C02 - object keys are a deterministic tree hash of the content.
   Statements and their derivations from Proofs/CafsStore.v and Proofs/CafsPut.v. *)
From Coq Require Import List NArith Arith Bool.
From DM Require Import Model.Cafs Proofs.CafsStore Proofs.CafsPut.
Import ListNotations.

(* The key returned by Put is tree_key of the content: a function of the content and the leaf
   size only - for every chunking of the source and every prior store content. *)
Theorem C02_key_function : forall H L, 0 < L -> forall chunks s,
  exists r, put H L chunks s = Ok r /\
    pr_written r = length (concat chunks) /\
    pr_key r = tree_key H L (concat chunks) /\
    pr_keys r = keys_of_leaves H L 0 (split_leaves L (concat chunks)).
Proof.
  intros H L Lpos chunks s. exists (put_of H L (concat chunks) s).
  split; [now apply put_eq|]. repeat split.
Qed.
Print Assumptions C02_key_function.

(* Storing content the store already holds returns the same key, reports a duplicate and changes
   no blob. *)
Theorem C02_duplicate : forall H L, 0 < L -> (forall l o d b x, length (H l o d b x) = KS) ->
  forall chunks s r,
  holds H L s (concat chunks) -> put H L chunks s = Ok r ->
  pr_found r = true /\ (forall k, lookup k (pr_store r) = lookup k s) /\ pr_key r = tree_key H L (concat chunks).
Proof.
  intros H L Lpos H_len chunks s r Hh Hp. rewrite (put_eq H L Lpos) in Hp. injection Hp as <-.
  destruct (put_settled H L (concat chunks) s (holds_settled H L Lpos H_len s _ Hh)) as [Hf Hs].
  split; [exact Hf|]. split; [|reflexivity]. intros k. now rewrite Hs.
Qed.
Print Assumptions C02_duplicate.

(* No Put ever changes a non-empty blob that is already in the store - whatever it belongs to,
   shared leaves included (no hash assumption needed). *)
Theorem C02_others_intact : forall H L, 0 < L -> forall chunks s r k x b,
  put H L chunks s = Ok r -> lookup k s = Some (x :: b) -> lookup k (pr_store r) = Some (x :: b).
Proof.
  intros H L Lpos chunks s r k x b Hp Hl. rewrite (put_eq H L Lpos) in Hp. injection Hp as <-.
  rewrite put_store. now apply apply_writes_keeps.
Qed.
Print Assumptions C02_others_intact.

(* Different contents get different keys, when no input collides with an honest input of the first. *)
Theorem C02_injective : forall H L, 0 < L -> (forall l o d b x, length (H l o d b x) = KS) ->
  forall c1 c2, nocoll H L (split_leaves L c1) -> tree_key H L c1 = tree_key H L c2 -> c1 = c2.
Proof.
  intros H L Lpos H_len c1 c2 Hnc E.
  (* equal roots are equal key lists, and the leaves can be read off the keys *)
  apply (root_of_inj H L H_len _ _ Hnc (hkeys_len H L H_len _ 0)) in E.
  symmetry in E. apply (keys_inj H L _ _ Hnc) in E.
  now rewrite <- (split_leaves_concat L Lpos c1), E, split_leaves_concat.
Qed.
Print Assumptions C02_injective.

(* After a Put into a clean store the store holds the object. *)
Theorem C02_put_holds : forall H L, 0 < L -> forall chunks s r,
  nocoll H L (split_leaves L (concat chunks)) ->
  clean s (blob_writes H L (split_leaves L (concat chunks))) ->
  put H L chunks s = Ok r -> holds H L (pr_store r) (concat chunks).
Proof. exact put_holds. Qed.
Print Assumptions C02_put_holds.
