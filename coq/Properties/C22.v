(* C22 - the write-range tracker records exactly the written ranges.
   Statements and their derivations from Proofs/TrackerProofs.v. *)
From Coq Require Import List ZArith Bool.
From DM Require Import Model.Tracker Model.TrackerCheck Proofs.TrackerProofs.
Import ListNotations.
Open Scope Z_scope.

(* For every history of writes (offset >= 0, length >= 0), every probe offset and positive
   length: the tracker answers "modified" iff some write covered the offset, and the
   contiguous length it returns is positive, at most the requested length, and does not
   cross a boundary between modified and unmodified offsets. *)
Theorem C22_refines_bitmap : forall ws off len,
  Forall valid_write ws -> 0 < len ->
  let '(c, b) := get_range off len (run_writes ws) in
  b = covered_by ws off /\
  0 < c <= len /\
  forall y, off <= y < off + c -> covered_by ws y = covered_by ws off.
Proof. intros ws off len _. apply get_range_refines. Qed.
Print Assumptions C22_refines_bitmap.

(* The executable oracle applied to implementation observations is exactly that statement. *)
Theorem C22_oracle_sound : forall ws off len c b,
  probe_ok ws off len (c, b) = true ->
  b = covered_by ws off /\ 0 < c <= len /\
  forall y, off <= y < off + c -> covered_by ws y = covered_by ws off.
Proof. intros ws off len c b. apply probe_ok_iff. Qed.
Print Assumptions C22_oracle_sound.

Theorem C22_oracle_accepts_model : forall ws off len,
  Forall valid_write ws -> 0 < len ->
  probe_ok ws off len (get_range off len (run_writes ws)) = true.
Proof.
  intros ws off len _ Hl. pose proof (get_range_refines ws off len Hl) as H.
  destruct (get_range off len (run_writes ws)) as [c b]. now apply probe_ok_iff.
Qed.
Print Assumptions C22_oracle_accepts_model.
