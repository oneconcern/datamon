(* C05 - bundle diff and in-place update are exact.
   Statements and their derivations from Proofs/DiffProofs.v. *)
From Coq Require Import List String NArith Bool.
From DM Require Import Model.Meta Model.Diff Proofs.DiffProofs.
Import ListNotations.
Open Scope list_scope.

(* For any two bundles (entries with distinct paths on each side) the diff contains exactly the
   added paths, the removed paths and the paths whose key changed... *)
Theorem C05_diff_exact : forall a b x, NoDup (map e_name a) -> NoDup (map e_name b) ->
  In x (diff a b) <-> in_spec a b x.
Proof. intros a b x _. apply diff_exact_b. Qed.
Print Assumptions C05_diff_exact.

(* ... each path at most once. *)
Theorem C05_diff_once : forall a b, NoDup (map e_name a) -> NoDup (map e_name b) ->
  NoDup (map snd (diff a b)).
Proof. exact diff_names_nodup. Qed.
Print Assumptions C05_diff_once.

(* Updating a local copy of a to b leaves, for every path, exactly what a download of b holds. *)
Theorem C05_update : forall a b, NoDup (map e_name a) -> NoDup (map e_name b) ->
  forall n, dget n (update a b (dir_of a)) = dget n (dir_of b).
Proof. intros a b _ Hb n. now apply update_exact_gen. Qed.
Print Assumptions C05_update.
