(* C07 - listings are complete, exact and ordered.
   Statements and their derivations from Proofs/ListProofs.v, Base/Listing.v. *)
From Coq Require Import List String NArith Bool Sorted.
From DM Require Import Base.Str Base.StrOrder Base.Listing Model.Meta Model.ListOps Proofs.ListProofs.
Import ListNotations.
Open Scope list_scope.

(* The store's listing under a prefix holds exactly the names under that prefix (cut after the
   delimiter), each once, in byte order - whatever other keys share the prefix. *)
Theorem C07_store_listing : forall p d ks x,
  In x (list_keys p d ks) <-> exists k, In k ks /\ starts_with p k = true /\ x = cut p d k.
Proof. exact list_keys_exact. Qed.
Print Assumptions C07_store_listing.

Theorem C07_store_listing_sorted : forall p d ks, StronglySorted slt (list_keys p d ks).
Proof. exact list_keys_sorted. Qed.
Print Assumptions C07_store_listing_sorted.

(* The key retrieval loop of every listing: for every page size >= 1, every per-page filter and
   every store content, the batches concatenated are the filtered listing - also when some pages
   are filtered down to nothing (pages made of split file-list keys only). *)
Theorem C07_all_batches : forall count f p d s, 0 < count ->
  exists ps, all_batches count f p d s = Some ps /\ List.concat ps = filter f (mlist p d s).
Proof. intros. unfold all_batches. apply fetch_keys_complete; auto. unfold mlist. apply list_keys_sorted. Qed.
Print Assumptions C07_all_batches.

(* Merging running/done records batch by batch is the same as merging the whole listing. *)
Theorem C07_merge_batches : forall bs st,
  List.concat (merge_batches st bs) = snd (merge_batch st (List.concat bs)).
Proof.
  induction bs as [|b bs IH]; intros st; cbn [merge_batches List.concat]; [reflexivity|].
  destruct (merge_batch st b) as [st' out] eqn:E. cbn [List.concat]. rewrite IH, merge_batch_app, E. reflexivity.
Qed.
Print Assumptions C07_merge_batches.

(* A listing in which every diamond (split) contributes its done record followed by its running
   record, or its running record alone, yields exactly one key per diamond (split), in order, the
   done record when there is one; no merge state is left behind. *)
Theorem C07_merge_groups : forall gs picks, Forall2 group gs picks ->
  merge_batch [] (List.concat gs) = ([], picks).
Proof.
  intros gs picks F. induction F as [|g p gs picks Hg F IH]; [reflexivity|].
  cbn [List.concat]. rewrite merge_batch_app.
  assert (Hone : merge_batch [] g = ([], [p])).
  { destruct Hg as [id kr Hr|id kd kr Hd Hr]; [exact (merge_running_only id kr Hr)|exact (merge_done_running id kd kr Hd Hr)]. }
  rewrite Hone. cbn [fst snd]. rewrite IH. reflexivity.
Qed.
Print Assumptions C07_merge_groups.
