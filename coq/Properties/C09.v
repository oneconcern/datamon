(* C09 - repository operations affect exactly their own repository.
   Statements and their derivations from Proofs/RepoProofs.v, Proofs/BundleProofs.v,
   Proofs/DeleteFiles.v, Proofs/RenameProofs.v. *)
From Coq Require Import List String NArith Bool.
From DM Require Import Base.Str Gen.Paths Model.Meta Model.Bundle Model.RepoOps
  Proofs.BundleProofs Proofs.RepoProofs Proofs.DeleteFiles Proofs.RenameProofs.
Import ListNotations.
Open Scope list_scope.

(* creation is create-if-absent: the first creator of a name succeeds, every later one is refused
   and changes nothing - whatever the order in which concurrent creators' writes take effect *)
Theorem C09_create_once : forall r w,
  repo_exists r w = false ->
  fst (create_repo r w) = ROk /\
  let w1 := snd (create_repo r w) in repo_exists r w1 = true /\
  forall w2, w_meta w2 = w_meta w1 -> create_repo r w2 = (RErr, w2).
Proof.
  intros r w Hn. unfold create_repo, repo_exists in *. rewrite mput_excl, Hn. cbn [fst snd w_meta with_meta].
  assert (Hr : mhas (GetArchivePathToRepoDescriptor r) ((GetArchivePathToRepoDescriptor r, VRepo r) :: w_meta w) = true)
    by (unfold mhas; cbn [mget]; now rewrite String.eqb_refl).
  split; [reflexivity|]. split; [exact Hr|]. intros w2 Hw. now rewrite mput_excl, Hw, Hr.
Qed.
Print Assumptions C09_create_once.

(* deleting a repository leaves every metadata key that is not below bundles/<repo>/<id>/ and is
   not the repository's descriptor ... *)
Theorem C09_delete_meta_frame : forall r w k,
  (forall id, under_bundle r id k = false) -> k <> GetArchivePathToRepoDescriptor r ->
  mget k (w_meta (snd (delete_repo r w))) = mget k (w_meta w).
Proof. exact delete_repo_meta_frame. Qed.
Print Assumptions C09_delete_meta_frame.

(* ... and every label key of any other repository *)
Theorem C09_delete_vmeta_frame : forall r w k,
  (forall n, k <> GetArchivePathToLabel r n) ->
  mget k (w_vmeta (snd (delete_repo r w))) = mget k (w_vmeta w).
Proof.
  intros r w k Hk. unfold delete_repo. destruct (negb (repo_exists r w)); [reflexivity|].
  apply mget_fold_frame. intros l v _. apply mget_mdelete_other. apply not_eq_sym, Hk.
Qed.
Print Assumptions C09_delete_vmeta_frame.

(* deleting one bundle touches nothing outside bundles/<repo>/<id>/ *)
Theorem C09_delete_bundle_frame : forall r id m k, under_bundle r id k = false ->
  mget k (delete_bundle_quiet r id m) = mget k m.
Proof. exact delete_bundle_frame. Qed.
Print Assumptions C09_delete_bundle_frame.

(* delete-files on one bundle stored as the file lists ls (none of them longer than E entries): the
   bundle afterwards holds exactly the entries whose path was not named, in their order, in a layout
   the reader accepts (every list but the last full); file lists no longer needed are gone and no
   key outside bundles/<repo>/<id>/ changes *)
Theorem C09_delete_files_bundle : forall E r id ls paths m,
  0 < E -> noslash r = true -> noslash id = true ->
  stored r id ls m -> Forall (fun l => List.length l <= E) ls ->
  exists ls' m',
    scrub_bundle E r id (N.of_nat (List.length ls)) paths m = Some m' /\
    stored r id ls' m' /\ wf_layout E ls' /\
    List.concat ls' = keep_entries paths (List.concat ls) /\
    (forall j, List.length ls' <= j -> j < List.length ls ->
               mget (GetArchivePathToBundleFileList r id (N.of_nat j)) m' = None) /\
    (forall k, under_bundle r id k = false -> mget k m' = mget k m).
Proof. intros E r id ls paths m HE _ _. now apply scrub_bundle_exact. Qed.
Print Assumptions C09_delete_files_bundle.

(* ... and reading the bundle back with the reader's per-list count checks yields those entries *)
Theorem C09_delete_files_reads_back : forall E r id ls paths m,
  0 < E -> noslash r = true -> noslash id = true ->
  stored r id ls m -> Forall (fun l => List.length l <= E) ls ->
  exists (ls' : list (list entry)) m', scrub_bundle E r id (N.of_nat (List.length ls)) paths m = Some m' /\
    mget (GetArchivePathToBundle r id) m' = Some (VBundle id (N.of_nat (List.length ls'))) /\
    unpack_lists E (List.length ls') 0
      (fun j => match mget (GetArchivePathToBundleFileList r id (N.of_nat j)) m' with Some (VIndex es) => Some es | _ => None end)
    = Some (keep_entries paths (List.concat ls)).
Proof.
  intros E r id ls paths m HE Hr Hid Hst Hmax.
  destruct (scrub_bundle_exact E r id ls paths m HE Hst Hmax) as [ls' [m' [Hs [[Hd Hl] [[Hfull Hlast] [Hcat _]]]]]].
  exists ls', m'. split; [exact Hs|]. split; [exact Hd|]. rewrite <- Hcat.
  apply unpack_layout; auto. intros j Hj. cbn [plus]. now rewrite (Hl j Hj).
Qed.
Print Assumptions C09_delete_files_reads_back.

(* the whole repository: every bundle is left with exactly its other entries, and nothing that is
   not below one of those bundles changes (other repositories, labels, the repository descriptor) *)
Theorem C09_delete_files_repo : forall E r paths ids m (lay : string -> list (list entry)),
  0 < E -> noslash r = true -> NoDup ids -> (forall id, In id ids -> noslash id = true) ->
  (forall id, In id ids -> stored r id (lay id) m /\ Forall (fun l => List.length l <= E) (lay id)) ->
  exists m', scrub_bundles E r paths ids m = (ROk, m') /\
    (forall id, In id ids -> exists ls', stored r id ls' m' /\ wf_layout E ls' /\
                                          List.concat ls' = keep_entries paths (List.concat (lay id))) /\
    (forall k, (forall id, In id ids -> under_bundle r id k = false) -> mget k m' = mget k m).
Proof. exact scrub_bundles_exact. Qed.
Print Assumptions C09_delete_files_repo.

(* rename: every committed bundle of the old name, stored as the file lists ls, is stored under the new
   name with the same bundle id and the same file lists once the rename is over (what happened to the
   old name is judged on snapshots by the check: nothing of it is left) *)
Theorem C09_rename_moves_bundle : forall r r' w id ls,
  noslash r = true -> noslash r' = true -> r <> r' ->
  repo_exists r w = true -> repo_exists r' w = false ->
  NoDup (bundles_of r w) -> (forall x, In x (bundles_of r w) -> noslash x = true) -> In id (bundles_of r w) ->
  stored r id ls (w_meta w) -> (forall k, under_bundle r' id k = true -> mget k (w_meta w) = None) ->
  stored r' id ls (w_meta (snd (rename_repo r r' w))).
Proof. intros r r' w id ls Hr Hr' Hne. now apply rename_moves_bundle. Qed.
Print Assumptions C09_rename_moves_bundle.
