(* C15 - concurrent uploads, downloads and commits do not interfere.
   Statements and their derivations from Proofs/ConcurProofs.v.  The log of writes of concurrent runs of the
   implementation (built with the Go race detector) is replayed on Model/Concur.v on every run; that
   the operations complete, that each result is the result of the operation alone, and that no data
   race is reported are observations of those runs - a theorem about the model cannot exhibit the
   Go scheduler or the memory model. *)
From Coq Require Import List String NArith Bool.
From DM Require Import Model.Concur Proofs.ConcurProofs.
Import ListNotations.
Open Scope list_scope.

(* Under the discipline of a content-addressed store (whoever writes a key writes the same content)
   no successful write is lost or altered: wherever it falls among the writes of the other operations,
   its key holds its content at the end. *)
Theorem C15_no_write_lost : forall before p after s store,
  (forall q, In q (before ++ p :: after) -> p_store q = store -> p_key q = p_key p -> p_digest q = p_digest p) ->
  (forall d, lookup (store, p_key p) (replay before s) = Some d -> d = p_digest p) ->
  p_store p = store ->
  lookup (store, p_key p) (replay (before ++ p :: after) s) = Some (p_digest p).
Proof.
  intros before p after s store Hdisc Hinit Hst.
  rewrite replay_app, replay_cons. apply replay_keeps.
  - rewrite lookup_apply_put, Hst, (proj2 (key_eqb_eq _ _) eq_refl).
    destruct (lookup _ (replay before s)) as [d|] eqn:E; [|reflexivity].
    rewrite (Hinit d eq_refl). now destruct (p_excl p).
  - intros q Hq [= Hs Hk]. apply Hdisc; auto using in_or_app, in_cons.
Qed.
Print Assumptions C15_no_write_lost.

(* An object that exists is never altered by a create-if-absent write (the metadata of one operation
   is out of reach of the others). *)
Theorem C15_excl_never_alters : forall s p k d, p_excl p = true -> lookup k s = Some d -> lookup k (fst (apply_put s p)) = Some d.
Proof. intros s p k d He H. rewrite lookup_apply_put, H, He. now destruct (key_eqb k _). Qed.
Print Assumptions C15_excl_never_alters.

(* A content an object holds stays as long as every later write to its key carries the same content. *)
Theorem C15_replay_keeps : forall trace s k d,
  lookup k s = Some d ->
  (forall p, In p trace -> (p_store p, p_key p) = k -> p_digest p = d) ->
  lookup k (replay trace s) = Some d.
Proof. exact replay_keeps. Qed.
Print Assumptions C15_replay_keeps.
