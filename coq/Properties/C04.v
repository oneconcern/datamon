(* C04 - bundle upload then download reproduces the uploaded tree.
   Statements and their derivations from Proofs/BundleProofs.v, Base/ListFacts.v.  They are about
   entries and index files; for the bytes of each file see the cafs theorems of C01 (C01_roundtrip). *)
From Coq Require Import List String NArith Bool Arith.
From DM Require Import Base.ListFacts Model.PathsParse Model.Meta Model.Bundle Proofs.BundleProofs.
Import ListNotations.
Open Scope list_scope.

(* For every tree with distinct names, every index-file capacity E >= 1 and every selection
   predicate: the upload yields one entry per non-generated file (size and key of that file), the
   entries laid out in index files of E read back identically through the reader's count checks
   (whatever their number: no bound on the tree size), and the download of the selected entries is
   exactly the selected non-generated files. *)
Theorem C04_roundtrip : forall fs skip E sel, 0 < E -> NoDup (map f_name fs) ->
  exists es,
    upload_entries (map f_name fs) fs skip = Some es /\
    unpack_lists E (List.length (chunk E es)) 0 (nth_error (chunk E es)) = Some es /\
    download_files es sel [] =
      Some (map (fun f => (f_name f, f_hash f))
                (filter (fun f => negb (is_generated (f_name f)) && sel (f_name f)) fs)).
Proof.
  intros fs skip E sel HE Hnd. eexists. split; [apply upload_all; exact Hnd|]. split; [now apply unpack_chunk|].
  set (keep := filter (fun f => negb (is_generated (f_name f))) fs).
  assert (Hnd' : NoDup (map e_name (map entry_of keep))).
  { rewrite map_map. now apply (NoDup_map_filter f_name). }
  rewrite download_selected by exact Hnd'. f_equal. apply selected_uploaded.
Qed.
Print Assumptions C04_roundtrip.

Theorem C04_entries : forall fs skip, NoDup (map f_name fs) ->
  upload_entries (map f_name fs) fs skip =
  Some (map entry_of (filter (fun f => negb (is_generated (f_name f))) fs)).
Proof. exact upload_all. Qed.
Print Assumptions C04_entries.

Theorem C04_index_files : forall E l, 0 < E ->
  List.concat (chunk E l) = l /\
  unpack_lists E (List.length (chunk E l)) 0 (nth_error (chunk E l)) = Some l.
Proof. intros E l HE. split; [now apply chunk_concat|now apply unpack_chunk]. Qed.
Print Assumptions C04_index_files.

(* explicit key lists: every entry stems from a listed, existing, non-generated file; the upload
   refuses only when a listed non-generated file is missing and missing files are not skipped *)
Theorem C04_keylist_sound : forall names fs skip es, upload_entries names fs skip = Some es ->
  forall e, In e es -> exists f, In f fs /\ e = entry_of f /\ In (f_name f) names /\ is_generated (f_name f) = false.
Proof.
  intros names fs skip es H e Hin. rewrite upload_entries_eq in H. destruct (existsb _ names); [discriminate|]. injection H as <-.
  apply in_map_iff in Hin. destruct Hin as (f & <- & Hf). apply in_flat_map in Hf. destruct Hf as (n & Hn & Hf).
  unfold listed in Hf. destruct (is_generated n) eqn:G; [destruct Hf|]. destruct (find_file n fs) as [g|] eqn:F; [|destruct Hf].
  destruct Hf as [<-|[]]. apply find_file_in in F. destruct F as [Hg <-]. now exists g.
Qed.
Print Assumptions C04_keylist_sound.

Theorem C04_keylist_refusal : forall names fs,
  upload_entries names fs false = None ->
  exists n, In n names /\ find_file n fs = None /\ is_generated n = false.
Proof.
  intros names fs H. rewrite upload_entries_eq in H. destruct (existsb _ names) eqn:E; [|discriminate].
  apply existsb_exists in E. destruct E as (n & Hn & C). exists n.
  destruct (is_generated n), (find_file n fs); try discriminate. auto.
Qed.
Print Assumptions C04_keylist_refusal.

Theorem C04_filter : forall es sel, NoDup (map e_name es) ->
  download_files es sel [] = Some (map (fun e => (e_name e, e_hash e)) (filter (fun e => sel (e_name e)) es)).
Proof. exact download_selected. Qed.
Print Assumptions C04_filter.
