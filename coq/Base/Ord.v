(* Decidable total orders given by a comparison function; lexicographic products; sorted sets as
   lists with canonical insertion; insertion commutes, hence folding insertions over a list gives
   the same set for every permutation of the list. *)
From Coq Require Import List String NArith Permutation.
From DM Require Import Base.StrOrder.
Import ListNotations.

Record ord (A : Type) := {
  cmp : A -> A -> comparison;
  cmp_eq : forall a b, cmp a b = Eq -> a = b;
  cmp_refl : forall a, cmp a a = Eq;
  cmp_anti : forall a b, cmp b a = CompOpp (cmp a b);
  cmp_trans : forall a b c, cmp a b = Lt -> cmp b c = Lt -> cmp a c = Lt
}.
Arguments cmp {A} _ _ _.
Arguments cmp_eq {A} _ _ _ _.
Arguments cmp_refl {A} _ _.
Arguments cmp_anti {A} _ _ _.
Arguments cmp_trans {A} _ _ _ _ _ _.

Definition ord_N : ord N.
Proof.
  refine {| cmp := N.compare |}.
  - intros a b. apply N.compare_eq.
  - apply N.compare_refl.
  - intros a b. apply N.compare_antisym.
  - intros a b c H1 H2. apply N.compare_lt_iff in H1. apply N.compare_lt_iff in H2. apply N.compare_lt_iff. eapply N.lt_trans; eauto.
Defined.

Definition ord_string : ord string.
Proof.
  refine {| cmp := String.compare |}.
  - intros a b. apply String.compare_eq_iff.
  - apply str_compare_refl.
  - intros a b. apply String.compare_antisym.
  - apply str_compare_lt_trans.
Defined.

Definition lex (c1 c2 : comparison) : comparison := match c1 with Eq => c2 | o => o end.

Definition ord_pair {A B} (oa : ord A) (ob : ord B) : ord (A * B).
Proof.
  refine {| cmp := fun x y => lex (cmp oa (fst x) (fst y)) (cmp ob (snd x) (snd y)) |}.
  - intros [a1 b1] [a2 b2]. cbn. destruct (cmp oa a1 a2) eqn:E; cbn; try discriminate.
    intros H. apply (cmp_eq oa) in E. apply (cmp_eq ob) in H. now subst.
  - intros [a b]. cbn. now rewrite (cmp_refl oa), (cmp_refl ob).
  - intros [a1 b1] [a2 b2]. cbn. rewrite (cmp_anti oa a1 a2), (cmp_anti ob b1 b2).
    destruct (cmp oa a1 a2); reflexivity.
  - intros [a1 b1] [a2 b2] [a3 b3]. cbn. intros H1 H2.
    destruct (cmp oa a1 a2) eqn:E1; cbn in H1; try discriminate.
    + apply (cmp_eq oa) in E1. subst a2. destruct (cmp oa a1 a3) eqn:E2; cbn in *; try discriminate; auto.
      eapply (cmp_trans ob); eauto.
    + destruct (cmp oa a2 a3) eqn:E2; cbn in H2; try discriminate.
      * apply (cmp_eq oa) in E2. subst a3. now rewrite E1.
      * now rewrite (cmp_trans oa _ _ _ E1 E2).
Defined.

Section SetInsert.
  Context {A : Type} (o : ord A).

  Fixpoint ins (v : A) (l : list A) : list A :=
    match l with
    | [] => [v]
    | x :: t => match cmp o v x with
                | Lt => v :: x :: t
                | Eq => x :: t
                | Gt => x :: ins v t
                end
    end.

  Lemma cmp_gt_lt : forall a b, cmp o a b = Gt -> cmp o b a = Lt.
  Proof. intros a b H. rewrite (cmp_anti o a b), H. reflexivity. Qed.
  Lemma cmp_lt_gt : forall a b, cmp o a b = Lt -> cmp o b a = Gt.
  Proof. intros a b H. rewrite (cmp_anti o a b), H. reflexivity. Qed.

  Lemma ins_comm : forall l a b, ins a (ins b l) = ins b (ins a l).
  Proof.
    induction l as [|x t IH]; intros a b.
    - cbn [ins]. destruct (cmp o a b) eqn:E.
      + apply (cmp_eq o) in E. subst. now rewrite (cmp_refl o).
      + now rewrite (cmp_lt_gt _ _ E).
      + now rewrite (cmp_gt_lt _ _ E).
    - cbn [ins]. destruct (cmp o a x) eqn:Ea; destruct (cmp o b x) eqn:Eb; cbn [ins]; rewrite ?Ea, ?Eb; try reflexivity.
      + (* a = x, b < x *) apply (cmp_eq o) in Ea. subst a. now rewrite (cmp_lt_gt _ _ Eb).
      + (* a < x, b = x *) apply (cmp_eq o) in Eb. subst b. now rewrite (cmp_lt_gt _ _ Ea).
      + (* both below x *) destruct (cmp o a b) eqn:E.
        * apply (cmp_eq o) in E. subst. now rewrite (cmp_refl o).
        * now rewrite (cmp_lt_gt _ _ E).
        * now rewrite (cmp_gt_lt _ _ E).
      + (* a < x < b *) assert (Hab : cmp o a b = Lt) by (eapply (cmp_trans o); [exact Ea|now apply cmp_gt_lt]).
        now rewrite (cmp_lt_gt _ _ Hab).
      + (* b < x < a *) assert (Hba : cmp o b a = Lt) by (eapply (cmp_trans o); [exact Eb|now apply cmp_gt_lt]).
        now rewrite (cmp_lt_gt _ _ Hba).
      + now rewrite IH.
  Qed.

  Definition to_set (l : list A) : list A := fold_left (fun s v => ins v s) l [].

  Lemma fold_ins_perm : forall l l', Permutation l l' -> forall s,
    fold_left (fun s v => ins v s) l s = fold_left (fun s v => ins v s) l' s.
  Proof.
    induction 1 as [|x l l' _ IH|x y l|l l' l'' _ IH1 _ IH2]; intros s; cbn [fold_left].
    - reflexivity.
    - apply IH.
    - now rewrite ins_comm.
    - now rewrite IH1.
  Qed.

  Theorem to_set_perm : forall l l', Permutation l l' -> to_set l = to_set l'.
  Proof. intros. unfold to_set. now apply fold_ins_perm. Qed.

  Lemma ins_In : forall l v x, In x (ins v l) <-> x = v \/ In x l.
  Proof.
    induction l as [|y t IH]; intros v x; cbn [ins].
    - cbn. split; intros [->|[]]; now left.
    - destruct (cmp o v y) eqn:E.
      + apply (cmp_eq o) in E. subst v. split; [now right|intros [->|H]; [now left|exact H]].
      + cbn [In]. split; (intros [->|H]; [now left|now right]).
      + cbn [In]. rewrite IH. split; intros [H|[H|H]]; auto.
  Qed.

  Lemma fold_ins_In : forall l s x, In x (fold_left (fun s v => ins v s) l s) <-> In x l \/ In x s.
  Proof.
    induction l as [|v l IH]; intros s x; cbn [fold_left].
    - cbn. tauto.
    - rewrite IH, ins_In. cbn [In]. split; [intros [H|[->|H]]|intros [[->|H]|H]]; auto.
  Qed.

  Theorem to_set_In : forall l x, In x (to_set l) <-> In x l.
  Proof. intros. unfold to_set. rewrite fold_ins_In. cbn. tauto. Qed.
End SetInsert.
