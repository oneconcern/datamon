(* Facts about lists that the standard library of 8.16 lacks, stated once for every element type;
   then lookup by a key projection, association lists with first-match lookup, and the cutting of
   a list into pieces of a fixed size, of which the stores, directories and layouts of the models
   are instances. *)
From Coq Require Import List Arith Lia Sorted Permutation.
Import ListNotations.

Lemma NoDup_app_iff : forall {A} (a b : list A),
  NoDup (a ++ b) <-> NoDup a /\ NoDup b /\ (forall x, In x a -> ~ In x b).
Proof.
  induction a as [|x a IH]; intros b; cbn [app].
  - split; [intros H; repeat split; [constructor|exact H|intros _ []]|tauto].
  - rewrite !NoDup_cons_iff, IH, in_app_iff. cbn [In]. split.
    + intros [Hx (Ha & Hb & Hd)]. repeat split; auto. intros y [<-|Hy]; auto.
    + intros [[Hx Ha] (Hb & Hd)]. repeat split; auto. intros [H|H]; [auto|]. exact (Hd x (or_introl eq_refl) H).
Qed.

Lemma NoDup_app_l : forall {A} (a b : list A), NoDup (a ++ b) -> NoDup a.
Proof. intros A a b H. now apply NoDup_app_iff in H. Qed.

Lemma NoDup_snoc : forall {A} (l : list A) x, NoDup l -> ~ In x l -> NoDup (l ++ [x]).
Proof.
  intros A l x Hl Hx. apply (Permutation_NoDup (Permutation_cons_append l x)). now constructor.
Qed.

Lemma NoDup_map_filter : forall {A B} (f : A -> B) (g : A -> bool) l, NoDup (map f l) -> NoDup (map f (filter g l)).
Proof.
  induction l as [|a l IH]; cbn [map filter]; intros H; [constructor|]. apply NoDup_cons_iff in H. destruct H as [Ha H].
  destruct (g a); [|now apply IH]. constructor; [|now apply IH].
  intros Hin. apply Ha. apply in_map_iff in Hin. destruct Hin as [e [E He]]. apply filter_In in He.
  apply in_map_iff. exists e. tauto.
Qed.

(* keys stay distinct when the list is re-keyed by a function that is injective on the keys present *)
Lemma NoDup_map_rekey : forall {A B C} (g : A -> B) (h : A -> C) (l : list A),
  NoDup (map h l) -> (forall a b, In a l -> In b l -> g a = g b -> h a = h b) -> NoDup (map g l).
Proof.
  intros A B C g h l. induction l as [|x l IH]; intros Hnd Hinj; [constructor|].
  apply NoDup_cons_iff in Hnd. destruct Hnd as [Hx Hnd]. constructor.
  - intros Hin. apply in_map_iff in Hin. destruct Hin as [y [E Hy]]. apply Hx. apply in_map_iff. exists y. split; [|exact Hy].
    symmetry. apply Hinj; [now left|now right|now symmetry].
  - apply IH; [exact Hnd|]. intros a b Ha Hb. apply Hinj; now right.
Qed.

(* each element yields nothing, or one item carrying the element's own key *)
Lemma NoDup_map_flat_map : forall {A B C} (key : A -> C) (g : B -> C) (f : A -> list B) l,
  (forall x, map g (f x) = [] \/ map g (f x) = [key x]) -> NoDup (map key l) -> NoDup (map g (flat_map f l)).
Proof.
  intros A B C key g f l Hf. induction l as [|a l IH]; cbn [map flat_map]; intros Hnd; [constructor|].
  apply NoDup_cons_iff in Hnd. destruct Hnd as [Ha Hnd]. rewrite map_app.
  destruct (Hf a) as [->| ->]; [auto|]. constructor; [|auto].
  intros Hin. apply Ha. apply in_map_iff in Hin. destruct Hin as [y [Hy Hin]].
  apply in_flat_map in Hin. destruct Hin as [x [Hx Hin]]. apply (in_map g) in Hin. rewrite Hy in Hin.
  destruct (Hf x) as [E|E]; rewrite E in Hin; [destruct Hin|]. destruct Hin as [<-|[]]. now apply in_map.
Qed.

Lemma NoDup_fst_fun : forall {K V} (l : list (K * V)) k a b, NoDup (map fst l) -> In (k, a) l -> In (k, b) l -> a = b.
Proof.
  induction l as [|[k0 v0] l IH]; intros k a b Hnd Ha Hb; [destruct Ha|].
  apply NoDup_cons_iff in Hnd. destruct Hnd as [Hk Hnd].
  destruct Ha as [Ha|Ha]; destruct Hb as [Hb|Hb].
  - congruence.
  - inversion Ha; subst. exfalso. apply Hk. apply (in_map fst _ _ Hb).
  - inversion Hb; subst. exfalso. apply Hk. apply (in_map fst _ _ Ha).
  - eapply IH; eauto.
Qed.

Lemma NoDup_map_inj : forall {A B} (f : A -> B) l a b, NoDup (map f l) -> In a l -> In b l -> f a = f b -> a = b.
Proof.
  intros A B f l a b Hnd Ha Hb E. apply (NoDup_fst_fun (map (fun x => (f x, x)) l) (f a)).
  - now rewrite map_map.
  - apply in_map_iff. eauto.
  - apply in_map_iff. exists b. split; [congruence|exact Hb].
Qed.

Lemma map_filter_comm : forall {A B} (f : A -> B) (g : B -> bool) l, map f (filter (fun a => g (f a)) l) = filter g (map f l).
Proof. induction l as [|a l IH]; cbn [filter map]; [reflexivity|]. destruct (g (f a)); cbn [map]; now rewrite IH. Qed.

Lemma filter_id : forall {A} (f : A -> bool) l, (forall x, In x l -> f x = true) -> filter f l = l.
Proof.
  induction l as [|a l IH]; intros H; cbn; [reflexivity|]. rewrite (H a) by now left.
  f_equal. apply IH. intros x Hx. apply H. now right.
Qed.

Lemma filter_length_le : forall {A} (f : A -> bool) l, List.length (filter f l) <= List.length l.
Proof. intros A f l. induction l as [|x l IH]; cbn; [lia|]. destruct (f x); cbn; lia. Qed.

Lemma filter_length_same : forall {A} (f : A -> bool) l, List.length (filter f l) = List.length l -> filter f l = l.
Proof.
  intros A f l. induction l as [|x l IH]; cbn; [reflexivity|]. destruct (f x); cbn; intros H.
  - f_equal. apply IH. lia.
  - pose proof (filter_length_le f l). lia.
Qed.

Lemma find_app : forall {A} (f : A -> bool) a b, find f (a ++ b) = match find f a with Some x => Some x | None => find f b end.
Proof. induction a as [|x a IH]; intros b; cbn; [reflexivity|]. destruct (f x); auto. Qed.

Lemma existsb_eqb_In : forall {A} (eqb : A -> A -> bool), (forall a b, eqb a b = true <-> a = b) ->
  forall k l, existsb (eqb k) l = true <-> In k l.
Proof.
  intros A eqb Heq k l. rewrite existsb_exists. split.
  - intros [x [Hx E]]. apply Heq in E. now subst.
  - intros H. exists k. split; [exact H|now apply Heq].
Qed.

Lemma In_firstn : forall {A} n (l : list A) x, In x (firstn n l) -> In x l.
Proof. intros A n l x H. rewrite <- (firstn_skipn n l). apply in_or_app. now left. Qed.

Lemma skipn_app_exact : forall {A} (d r : list A), skipn (List.length d) (d ++ r) = r.
Proof. induction d; intros; cbn; auto. Qed.

Lemma skipn_skipn : forall {A} (l : list A) a b, skipn a (skipn b l) = skipn (b + a) l.
Proof.
  intros A l a b. revert l. induction b as [|b IH]; intros l; [reflexivity|].
  destruct l as [|x l]; [now destruct a|apply IH].
Qed.

Lemma skipn_nth_error : forall {A} (l : list A) i d, nth_error l i = Some d -> skipn i l = d :: skipn (S i) l.
Proof.
  induction l as [|x l IH]; intros [|i] d H; try discriminate; [now inversion H|]. now apply IH.
Qed.

Lemma firstn_S_nth_error : forall {A} (l : list A) i d, nth_error l i = Some d -> firstn (S i) l = firstn i l ++ [d].
Proof.
  induction l as [|x l IH]; intros [|i] d H; try discriminate; [now inversion H|].
  cbn [firstn app]. f_equal. now apply IH.
Qed.

Lemma nth_firstn_lt : forall {A} (l : list A) n i d, i < n -> nth i (firstn n l) d = nth i l d.
Proof.
  intros A l. induction l as [|x l IH]; intros n i d H; [now rewrite firstn_nil|].
  destruct n as [|n]; [lia|]. destruct i as [|i]; [reflexivity|]. apply IH. lia.
Qed.

Lemma nth_skipn : forall {A} (l : list A) off i d, nth i (skipn off l) d = nth (off + i) l d.
Proof.
  intros A l off. revert l. induction off as [|off IH]; intros l i d; [reflexivity|].
  destruct l as [|x l]; [now destruct i|apply IH].
Qed.

Lemma nth_error_skipn : forall {A} (l : list A) off i, nth_error (skipn off l) i = nth_error l (off + i).
Proof.
  intros A l off. revert l. induction off as [|off IH]; intros l i; [reflexivity|].
  destruct l as [|x l]; [now destruct i|apply IH].
Qed.

Lemma Forall_last : forall {A} (P : A -> Prop) l d, l <> [] -> Forall P l -> P (last l d).
Proof.
  induction l as [|c l IH]; intros d Hne F; [congruence|].
  apply Forall_cons_iff in F. destruct F as [Fc F]. destruct l; [exact Fc|]. apply IH; auto. discriminate.
Qed.

Lemma combine_app : forall {A B} (a1 a2 : list A) (b1 b2 : list B),
  length a1 = length b1 -> combine (a1 ++ a2) (b1 ++ b2) = combine a1 b1 ++ combine a2 b2.
Proof.
  induction a1 as [|x a1 IH]; intros a2 b1 b2 Hl; destruct b1 as [|y b1]; try discriminate; [reflexivity|].
  cbn. f_equal. apply IH. now injection Hl.
Qed.

Lemma map_fst_combine : forall {A B} (a : list A) (b : list B), length a = length b -> map fst (combine a b) = a.
Proof.
  induction a as [|x a IH]; intros b Hl; destruct b; try discriminate; [reflexivity|].
  cbn. f_equal. apply IH. now injection Hl.
Qed.

Lemma Forall2_impl : forall {A B} (P Q : A -> B -> Prop) l1 l2,
  (forall a b, P a b -> Q a b) -> Forall2 P l1 l2 -> Forall2 Q l1 l2.
Proof. intros A B P Q l1 l2 H F. induction F; constructor; auto. Qed.

Lemma Forall2_combine : forall {A B} (R : A -> B -> Prop) a b,
  Forall2 R a b <-> length a = length b /\ forall x y, In (x, y) (combine a b) -> R x y.
Proof.
  intros A B R. induction a as [|x0 a IH]; intros [|y0 b]; cbn [length combine In].
  - split; [intros _; split; [reflexivity|intros x y []]|constructor].
  - split; [intros HF; inversion HF|intros [E _]; discriminate].
  - split; [intros HF; inversion HF|intros [E _]; discriminate].
  - split.
    + intros HF. inversion HF as [|? ? ? ? Hxy Hab]; subst. apply IH in Hab. destruct Hab as [El Hin].
      split; [now rewrite El|]. intros x y [E|Hxy']; [now inversion E; subst|auto].
    + intros [El Hin]. constructor; [apply Hin; now left|]. apply IH. split; [now injection El|]. auto.
Qed.

Lemma Forall2_nth_error : forall {A B} (R : A -> B -> Prop) a b, Forall2 R a b ->
  forall i x y, nth_error a i = Some x -> nth_error b i = Some y -> R x y.
Proof.
  induction 1 as [|x0 y0 a b Hxy _ IH]; intros [|i] x y Ha Hb; try discriminate.
  - now injection Ha as <-; injection Hb as <-.
  - eauto.
Qed.

Lemma fold_left_inv : forall {A B} (P : A -> Prop) (f : A -> B -> A) l,
  (forall a b, In b l -> P a -> P (f a b)) -> forall a, P a -> P (fold_left f l a).
Proof.
  intros A B P f l. induction l as [|b l IH]; intros H a Ha; [exact Ha|].
  apply IH; [intros a' b' Hb'; apply H; now right|apply H; [now left|exact Ha]].
Qed.

Lemma StronglySorted_filter : forall {A} (R : A -> A -> Prop) (f : A -> bool) l, StronglySorted R l -> StronglySorted R (filter f l).
Proof.
  induction l as [|a l IH]; intros H; cbn [filter]; [constructor|]. apply StronglySorted_inv in H. destruct H as [Hs Hall].
  destruct (f a); [|now apply IH]. constructor; [now apply IH|]. apply Forall_forall. intros x Hx. apply filter_In in Hx.
  rewrite Forall_forall in Hall. now apply Hall.
Qed.

Lemma StronglySorted_firstn : forall {A} (R : A -> A -> Prop) n l, StronglySorted R l -> StronglySorted R (firstn n l).
Proof.
  induction n as [|n IH]; intros l H; [constructor|]. destruct l as [|a l]; [constructor|].
  apply StronglySorted_inv in H. destruct H as [Hs Hall]. constructor; [now apply IH|].
  apply Forall_forall. intros x Hx. rewrite Forall_forall in Hall. apply Hall. eapply In_firstn; eauto.
Qed.

(* the first element with a given key: Diff.find_entry and Bundle.find_file are kfind *)
Section KeyFind.
  Context {A K : Type} (eqb : K -> K -> bool) (key : A -> K).
  Hypothesis eqb_eq : forall a b, eqb a b = true <-> a = b.

  Fixpoint kfind (n : K) (l : list A) : option A :=
    match l with
    | [] => None
    | x :: t => if eqb n (key x) then Some x else kfind n t
    end.

  Lemma kfind_some : forall n l e, kfind n l = Some e -> In e l /\ key e = n.
  Proof.
    induction l as [|x l IH]; intros e H; [discriminate|]. cbn in H.
    destruct (eqb n (key x)) eqn:E.
    - injection H as <-. apply eqb_eq in E. auto using in_eq.
    - destruct (IH e H). auto using in_cons.
  Qed.

  Lemma kfind_none : forall n l, kfind n l = None <-> ~ In n (map key l).
  Proof.
    induction l as [|x l IH]; cbn; [tauto|].
    destruct (eqb n (key x)) eqn:E.
    - apply eqb_eq in E. split; [discriminate|]. intros H. exfalso. apply H. now left.
    - rewrite IH. split; [intros H [C|C]; [|tauto]|tauto]. symmetry in C. apply eqb_eq in C. congruence.
  Qed.

  Lemma kfind_self : forall l e, NoDup (map key l) -> In e l -> kfind (key e) l = Some e.
  Proof.
    induction l as [|x l IH]; intros e Hnd Hin; [destruct Hin|].
    cbn in Hnd. apply NoDup_cons_iff in Hnd. destruct Hnd as [Hx Hnd]. cbn.
    destruct Hin as [->|Hin]; [now rewrite (proj2 (eqb_eq _ _) eq_refl)|].
    destruct (eqb (key e) (key x)) eqn:E; [|now apply IH].
    apply eqb_eq in E. exfalso. apply Hx. rewrite <- E. now apply in_map.
  Qed.
End KeyFind.

(* Association lists.  The get / remove / set of the models (Meta, LocalFS, Diff at String.eqb;
   Cafs at bytes_eqb; Concur at key_eqb) are, up to the types of keys and values, the three
   functions below, so what is proved here holds of them by conversion. *)
Section Assoc.
  Context {K V : Type} (eqb : K -> K -> bool).
  Hypothesis eqb_eq : forall a b, eqb a b = true <-> a = b.

  Fixpoint aget (k : K) (s : list (K * V)) : option V :=
    match s with
    | [] => None
    | (k', v) :: t => if eqb k k' then Some v else aget k t
    end.

  (* remove every binding of k *)
  Fixpoint aremove (k : K) (s : list (K * V)) : list (K * V) :=
    match s with
    | [] => []
    | (k', v) :: t => if eqb k k' then aremove k t else (k', v) :: aremove k t
    end.

  (* overwrite the first binding of k in place, or append *)
  Fixpoint aset (k : K) (v : V) (s : list (K * V)) : list (K * V) :=
    match s with
    | [] => [(k, v)]
    | (k', v') :: t => if eqb k k' then (k, v) :: t else (k', v') :: aset k v t
    end.

  Let eqb_trans_l : forall k k' k0, eqb k k0 = true -> eqb k' k0 = eqb k' k.
  Proof. intros k k' k0 H. apply eqb_eq in H. now subst. Qed.

  Lemma aget_aremove : forall k k' s, aget k' (aremove k s) = if eqb k' k then None else aget k' s.
  Proof.
    intros k k'. induction s as [|[k0 v] s IH]; cbn [aremove aget]; [now destruct (eqb k' k)|].
    destruct (eqb k k0) eqn:E; cbn [aget]; rewrite IH.
    - rewrite (eqb_trans_l _ k' _ E). now destruct (eqb k' k).
    - destruct (eqb k' k) eqn:E'; [|reflexivity]. apply eqb_eq in E'. subst k'. now rewrite E.
  Qed.

  Lemma aget_aset : forall k k' v s, aget k' (aset k v s) = if eqb k' k then Some v else aget k' s.
  Proof.
    intros k k' v. induction s as [|[k0 v0] s IH]; cbn [aset aget]; [reflexivity|].
    destruct (eqb k k0) eqn:E; cbn [aget].
    - rewrite (eqb_trans_l _ k' _ E). now destruct (eqb k' k).
    - rewrite IH. destruct (eqb k' k) eqn:E'; [|reflexivity]. apply eqb_eq in E'. subst k'. now rewrite E.
  Qed.

  Lemma aremove_absent : forall k s, aget k s = None -> aremove k s = s.
  Proof.
    induction s as [|[k' v] s IH]; intros H; [reflexivity|]. cbn in *.
    destruct (eqb k k'); [discriminate|]. now rewrite IH.
  Qed.
End Assoc.

(* A list cut into pieces of n, the last one possibly shorter: the leaves of a cafs object
   (Model/Cafs.split_leaves, this function by conversion) and the index files of a bundle
   (Model/Bundle.chunk). *)
Section Chunks.
  Context {A : Type}.
  Variable n : nat.

  Fixpoint chunks_fuel (fuel : nat) (l : list A) : list (list A) :=
    match fuel with
    | O => []
    | S f => match l with
             | [] => []
             | _ => firstn n l :: chunks_fuel f (skipn n l)
             end
    end.
  Definition chunks (l : list A) : list (list A) := chunks_fuel (length l) l.

  Hypothesis npos : 0 < n.

  Lemma chunks_fuel_irrel : forall f1 f2 l, length l <= f1 -> length l <= f2 ->
    chunks_fuel f1 l = chunks_fuel f2 l.
  Proof.
    induction f1 as [|f1 IH]; intros f2 l H1 H2.
    - destruct l; [now destruct f2|cbn in H1; lia].
    - destruct l as [|x l']; [now destruct f2|]. destruct f2 as [|f2]; [cbn in H2; lia|].
      cbn [chunks_fuel]. f_equal. apply IH; rewrite skipn_length; cbn [length] in *; lia.
  Qed.

  (* chunks without its fuel *)
  Lemma chunks_cons : forall l, l <> [] -> chunks l = firstn n l :: chunks (skipn n l).
  Proof.
    intros [|x l'] Hl; [congruence|]. unfold chunks. cbn [length chunks_fuel]. f_equal.
    apply chunks_fuel_irrel; rewrite skipn_length; cbn [length]; lia.
  Qed.

  Lemma chunks_concat : forall l, concat (chunks l) = l.
  Proof.
    intros l. induction l as [l IH] using (induction_ltof1 _ (@length A)). unfold ltof in IH.
    destruct l as [|x l'] eqn:E; [reflexivity|]. rewrite <- E in *.
    rewrite chunks_cons by (subst l; discriminate). cbn [concat].
    rewrite IH; [apply firstn_skipn|]. rewrite skipn_length. subst l. cbn [length]. lia.
  Qed.

  (* full pieces in front stay as they are *)
  Lemma chunks_concat_prefix : forall pre rest, Forall (fun p => length p = n) pre ->
    chunks (concat pre ++ rest) = pre ++ chunks rest.
  Proof.
    intros pre rest F. induction F as [|p pre Hp F IH]; [reflexivity|]. cbn [concat app].
    rewrite <- app_assoc, chunks_cons by (destruct p; [cbn in Hp; lia|discriminate]).
    now rewrite <- Hp, firstn_app, firstn_all, Nat.sub_diag, skipn_app_exact, app_nil_r, IH.
  Qed.

  Lemma chunks_short : forall b, length b <= n -> chunks b = match b with [] => [] | _ => [b] end.
  Proof.
    intros [|x b] Hb; [reflexivity|]. rewrite chunks_cons by discriminate.
    now rewrite firstn_all2, skipn_all2 by exact Hb.
  Qed.

  (* the pieces from index i on are the pieces of the list from position i * n on *)
  Lemma chunks_skipn : forall i l, skipn i (chunks l) = chunks (skipn (i * n) l).
  Proof.
    induction i as [|i IH]; intros l; [reflexivity|].
    destruct l as [|x l'] eqn:E; [now rewrite !skipn_nil|]. rewrite <- E.
    rewrite chunks_cons by (subst l; discriminate). cbn [skipn Nat.mul]. now rewrite IH, skipn_skipn.
  Qed.

  Lemma chunks_from : forall i l, concat (skipn i (chunks l)) = skipn (i * n) l.
  Proof. intros. now rewrite chunks_skipn, chunks_concat. Qed.

  (* all that the layout says about one piece: only the last one may be short *)
  Lemma chunks_nth : forall l i d, nth_error (chunks l) i = Some d ->
    0 < length d <= n /\ (length d <> n -> S i = length (chunks l)).
  Proof.
    intros l i d Hd. assert (Hi : i < length (chunks l)) by (apply nth_error_Some; congruence).
    pose proof (chunks_skipn i l) as E. rewrite (skipn_nth_error _ i d Hd) in E.
    destruct (skipn (i * n) l) as [|x r]; [discriminate|]. rewrite (chunks_cons (x :: r)) in E by discriminate.
    pose proof (f_equal (@tl _) E) as Et. injection E as -> _. cbn [tl] in Et. rewrite firstn_length.
    split; [split; [apply Nat.min_glb_lt; [exact npos|cbn; lia]|apply Nat.le_min_l]|]. intros Hshort.
    (* nothing is left behind a short piece *)
    destruct (Nat.min_spec n (length (x :: r))) as [[_ Em]|[Hle _]]; [congruence|].
    rewrite (skipn_all2 _ Hle) in Et. apply (f_equal (@length _)) in Et. rewrite skipn_length in Et.
    cbn in Et. lia.
  Qed.
End Chunks.
