(* Small shared helpers of the case files and their oracles: integer ranges, indices of the elements
   that satisfy a test. *)
From Coq Require Import List ZArith Lia.
Import ListNotations.

Fixpoint zseq (a : Z) (n : nat) : list Z :=
  match n with O => [] | S n' => a :: zseq (a + 1) n' end.

Lemma in_zseq : forall n a y, In y (zseq a n) <-> (a <= y < a + Z.of_nat n)%Z.
Proof.
  induction n as [|n IH]; intros a y; cbn [zseq In].
  - lia.
  - rewrite IH. lia.
Qed.

Fixpoint indices_from {A} (i : N) (f : A -> bool) (l : list A) : list N :=
  match l with
  | [] => []
  | x :: t => if f x then i :: indices_from (i + 1)%N f t else indices_from (i + 1)%N f t
  end.
Definition indices {A} (f : A -> bool) (l : list A) : list N := indices_from 0%N f l.
