(* Strings (Coq [string] = sequences of bytes) : decimal numbers, join, split, prefixes. *)
From Coq Require Import List String Ascii NArith Bool.
From Coq Require Import DecimalString DecimalN Decimal.
Import ListNotations.
Open Scope string_scope.

(* decimal rendering of an unsigned integer, as fmt prints a uint64 *)
Definition dec (n : N) : string := NilZero.string_of_uint (N.to_uint n).

(* strict decimal parsing: non-empty, digits only *)
Definition undec (s : string) : option N := option_map N.of_uint (NilZero.uint_of_string s).

Lemma to_uint_nonnil : forall n, N.to_uint n <> Nil.
Proof. destruct n; [discriminate|apply DecimalPos.Unsigned.to_uint_nonnil]. Qed.

Lemma undec_dec : forall n, undec (dec n) = Some n.
Proof.
  intros n. unfold undec, dec. rewrite NilZero.usu by apply to_uint_nonnil.
  cbn. now rewrite DecimalN.Unsigned.of_to.
Qed.

Fixpoint join (sep : string) (l : list string) : string :=
  match l with
  | [] => ""
  | [x] => x
  | x :: t => x ++ sep ++ join sep t
  end.

Definition is_slash (c : ascii) : bool := Ascii.eqb c "/"%char.

(* no '/' byte *)
Fixpoint noslash (s : string) : bool :=
  match s with
  | EmptyString => true
  | String c t => negb (is_slash c) && noslash t
  end.

(* strings.SplitN(s, "/", n) for n >= 1 *)
Fixpoint splitn (n : nat) (s : string) : list string :=
  match n with
  | O => []
  | S O => [s]
  | S n' =>
      match s with
      | EmptyString => [""]
      | String c t =>
          if is_slash c then "" :: splitn n' t
          else match splitn n t with
               | h :: r => String c h :: r
               | [] => [String c ""]
               end
      end
  end.

Fixpoint starts_with (p s : string) : bool :=
  match p, s with
  | EmptyString, _ => true
  | String a p', String b s' => Ascii.eqb a b && starts_with p' s'
  | _, _ => false
  end.

Fixpoint drop (n : nat) (s : string) : string :=
  match n, s with
  | O, _ => s
  | S n', String _ t => drop n' t
  | S _, EmptyString => ""
  end.

Definition ends_with (suf s : string) : bool :=
  let ls := String.length s in let lf := String.length suf in
  Nat.leb lf ls && String.eqb (drop (ls - lf) s) suf.

Fixpoint all_chars (f : ascii -> bool) (s : string) : bool :=
  match s with EmptyString => true | String c t => f c && all_chars f t end.

Definition is_digit (c : ascii) : bool :=
  let n := N_of_ascii c in (48 <=? n)%N && (n <=? 57)%N.

Lemma starts_with_app : forall p s, starts_with p (p ++ s) = true.
Proof. induction p as [|a p IH]; intros s; cbn; [reflexivity|]. now rewrite Ascii.eqb_refl, IH. Qed.

Lemma noslash_app : forall a b, noslash (a ++ b) = noslash a && noslash b.
Proof. induction a as [|c a IH]; intros b; cbn; [reflexivity|]. now rewrite IH, andb_assoc. Qed.

(* splitting a path whose first component has no slash *)
Lemma splitn_cons : forall n a rest, noslash a = true ->
  splitn (S (S n)) (a ++ "/" ++ rest) = a :: splitn (S n) rest.
Proof.
  intros n a. revert n. induction a as [|c a IH]; intros n rest H.
  - reflexivity.
  - apply andb_prop in H. destruct H as [Hc Ha].
    change ((String c a ++ "/" ++ rest)) with (String c (a ++ "/" ++ rest)).
    cbn [splitn]. apply negb_true_iff in Hc. now rewrite Hc, (IH n rest Ha).
Qed.

Lemma splitn_last : forall n a, noslash a = true -> splitn (S n) a = [a].
Proof.
  intros n a. revert n. induction a as [|c a IH]; intros n H.
  - destruct n; reflexivity.
  - apply andb_prop in H. destruct H as [Hc Ha]. apply negb_true_iff in Hc.
    destruct n; [reflexivity|]. cbn [splitn]. now rewrite Hc, (IH (S n) Ha).
Qed.

Lemma app_assoc_s : forall a b c : string, (a ++ b) ++ c = a ++ b ++ c.
Proof. induction a as [|x a IH]; intros; cbn; [reflexivity|]. now rewrite IH. Qed.

Lemma app_nil_r_s : forall s : string, s ++ "" = s.
Proof. induction s as [|c s IH]; cbn; [reflexivity|]. now rewrite IH. Qed.

Lemma length_app : forall a b, String.length (a ++ b) = String.length a + String.length b.
Proof. induction a as [|c a IH]; intros b; cbn; [reflexivity|]. now rewrite IH. Qed.

Lemma app_inv_head_s : forall a b c : string, a ++ b = a ++ c -> b = c.
Proof. induction a as [|x a IH]; intros b c H; [exact H|]. inversion H. now apply IH. Qed.

Lemma drop_app : forall a b, drop (String.length a) (a ++ b) = b.
Proof. induction a as [|c a IH]; intros b; [reflexivity|apply IH]. Qed.

Lemma eqb_app_l : forall L a b, String.eqb (L ++ a) (L ++ b) = String.eqb a b.
Proof. induction L as [|c L IH]; intros; cbn; [reflexivity|]. now rewrite Ascii.eqb_refl, IH. Qed.

Lemma starts_with_drop : forall p s, starts_with p s = true -> s = p ++ drop (String.length p) s.
Proof.
  induction p as [|a p IH]; intros s H; [reflexivity|].
  destruct s as [|b s]; [discriminate|]. apply andb_prop in H. destruct H as [H1 H2].
  apply Ascii.eqb_eq in H1. subst b. cbn. f_equal. now apply IH.
Qed.

Lemma starts_with_app_l : forall L x r, starts_with (L ++ x) (L ++ r) = starts_with x r.
Proof. induction L as [|c L IH]; intros; cbn; [reflexivity|]. now rewrite Ascii.eqb_refl, IH. Qed.

Lemma starts_with_app_weaken : forall L x p, starts_with (L ++ x) p = true -> starts_with L p = true.
Proof.
  induction L as [|c L IH]; intros x p H; [reflexivity|].
  destruct p as [|d p]; [discriminate|]. cbn in *. apply andb_prop in H. destruct H as [H1 H2].
  rewrite H1. eapply IH; eauto.
Qed.

Lemma starts_with_elem : forall a b rest, noslash a = true -> noslash b = true ->
  starts_with (a ++ "/") (b ++ "/" ++ rest) = true -> a = b.
Proof.
  induction a as [|x a IH]; intros [|y b] rest Ha Hb H;
    try apply andb_prop in H; try apply andb_prop in Ha; try apply andb_prop in Hb.
  - reflexivity.
  - destruct H as [H _]. apply Ascii.eqb_eq in H. subst y. now destruct Hb.
  - destruct H as [H _]. apply Ascii.eqb_eq in H. subst x. now destruct Ha.
  - destruct H as [H1 H2], Ha as [_ Ha], Hb as [_ Hb]. apply Ascii.eqb_eq in H1. subst y. f_equal. eauto.
Qed.

(* a key lies in at most one subdirectory of L *)
Lemma dir_unique : forall L a b k, noslash a = true -> noslash b = true ->
  starts_with (L ++ a ++ "/") k = true -> starts_with (L ++ b ++ "/") k = true -> a = b.
Proof.
  intros L a b k Ha Hb H1 H2. apply starts_with_drop in H2. rewrite H2 in H1.
  rewrite !app_assoc_s, starts_with_app_l in H1. eapply starts_with_elem; eauto.
Qed.

Lemma all_chars_noslash : forall f s, f "/"%char = false -> all_chars f s = true -> noslash s = true.
Proof.
  intros f s Hf. induction s as [|c s IH]; cbn; intros H; [reflexivity|].
  apply andb_prop in H. destruct H as [Hc Hs]. rewrite (IH Hs).
  unfold is_slash. destruct (Ascii.eqb_spec c "/"); [congruence|reflexivity].
Qed.

Lemma splitn_join : forall cs n, Forall (fun c => noslash c = true) cs -> cs <> [] -> List.length cs <= n ->
  splitn n (join "/" cs) = cs.
Proof.
  induction cs as [|a [|b t] IH]; intros n H Hne Hn; [now destruct Hne| |]; inversion H as [|? ? Ha Ht].
  - destruct n; [inversion Hn|]. now apply splitn_last.
  - destruct n as [|[|n]]; [inversion Hn|apply le_S_n in Hn; inversion Hn|].
    change (join "/" (a :: b :: t)) with (a ++ "/" ++ join "/" (b :: t)).
    rewrite splitn_cons by exact Ha. f_equal. apply IH; [exact Ht|discriminate|exact (le_S_n _ _ Hn)].
Qed.

Lemma digits_string_of_uint : forall d, all_chars is_digit (NilEmpty.string_of_uint d) = true.
Proof. induction d; auto. Qed.

Lemma dec_digits : forall n, all_chars is_digit (dec n) = true.
Proof.
  intros n. unfold dec, NilZero.string_of_uint. destruct (N.to_uint n); try apply digits_string_of_uint.
  reflexivity.
Qed.

Lemma dec_nonempty : forall n, String.eqb (dec n) "" = false.
Proof.
  intros n. unfold dec, NilZero.string_of_uint.
  destruct (N.to_uint n); reflexivity.
Qed.

Lemma dec_inj : forall a b, dec a = dec b -> a = b.
Proof. intros a b H. pose proof (undec_dec a) as Ha. rewrite H, undec_dec in Ha. now inversion Ha. Qed.
