(* Paged listings over a strictly sorted list of keys.  A page is [count] keys plus the key at
   which the next page starts ("" encoded as None); the continuation is located either by
   skipping smaller keys (start-key semantics: GCS, memstore) or by exact match (localfs). *)
From Coq Require Import List String PeanoNat Lia Sorted.
From DM Require Import Base.StrOrder.
Import ListNotations.
Open Scope list_scope.

Fixpoint drop_lt (tok : string) (l : list string) : list string :=
  match l with
  | [] => []
  | k :: t => if String.ltb k tok then drop_lt tok t else l
  end.

Fixpoint find_eq (tok : string) (l : list string) : option (list string) :=
  match l with
  | [] => None
  | k :: t => if String.eqb tok k then Some l else find_eq tok t
  end.

Definition page_of (l' : list string) (count : nat) : list string * option string :=
  (firstn count l', hd_error (skipn count l')).

Lemma drop_lt_suffix : forall pre k suf,
  StronglySorted slt (pre ++ k :: suf) -> drop_lt k (pre ++ k :: suf) = k :: suf.
Proof.
  induction pre as [|a pre IH]; intros k suf Hs; cbn.
  - now rewrite slt_irrefl.
  - inversion Hs as [|x y Hs' Hall].
    assert (Hak : String.ltb a k = true).
    { rewrite Forall_forall in Hall. apply Hall. apply in_or_app. right. now left. }
    rewrite Hak. now apply IH.
Qed.

Lemma find_eq_suffix : forall pre k suf,
  StronglySorted slt (pre ++ k :: suf) -> find_eq k (pre ++ k :: suf) = Some (k :: suf).
Proof.
  induction pre as [|a pre IH]; intros k suf Hs; cbn.
  - now rewrite String.eqb_refl.
  - inversion Hs as [|x y Hs' Hall]; subst.
    assert (Hak : String.ltb a k = true).
    { rewrite Forall_forall in Hall. apply Hall. apply in_or_app. right. now left. }
    destruct (String.eqb k a) eqn:E.
    + apply String.eqb_eq in E. subst a. rewrite slt_irrefl in Hak. discriminate.
    + now apply IH.
Qed.

Section Pager.
(* how a continuation token is turned back into the remaining keys *)
Variable seek : string -> list string -> list string.
Hypothesis seek_suffix : forall pre k suf,
  StronglySorted slt (pre ++ k :: suf) -> seek k (pre ++ k :: suf) = k :: suf.

Definition page (tok : option string) (count : nat) (l : list string) : list string * option string :=
  page_of (match tok with None => l | Some t => seek t l end) count.

(* the client loop: fetch pages until the continuation is empty *)
Fixpoint all_pages (fuel : nat) (tok : option string) (count : nat) (l : list string) : option (list string) :=
  match fuel with
  | O => None
  | S f =>
    let '(p, next) := page tok count l in
    match next with
    | None => Some p
    | Some t => match all_pages f (Some t) count l with Some r => Some (List.app p r) | None => None end
    end
  end.

(* The loop when the page it fetches next sees suf, the keys still to come: a page takes count of
   them, and seek finds the rest again from its first key because the listing is sorted.  A call
   returns at least one key unless none is left, hence the fuel. *)
Lemma all_pages_from : forall fuel pre suf count tok, 0 < count -> StronglySorted slt (pre ++ suf) ->
  match tok with None => pre ++ suf | Some t => seek t (pre ++ suf) end = suf ->
  List.length suf < fuel * count -> all_pages fuel tok count (pre ++ suf) = Some suf.
Proof.
  induction fuel as [|f IH]; intros pre suf count tok Hc Hs Hsee Hf; [inversion Hf|].
  cbn [all_pages page page_of]. rewrite Hsee.
  destruct (skipn count suf) as [|k2 rest] eqn:Esk; cbn [hd_error].
  - f_equal. apply firstn_all2. apply Nat.sub_0_le. rewrite <- skipn_length. now rewrite Esk.
  - (* the page is full, since keys are left *)
    pose proof (firstn_skipn count suf) as Hsplit. rewrite Esk in Hsplit.
    pose proof (skipn_length count suf) as Hlen. rewrite Esk in Hlen.
    assert (E : pre ++ suf = (pre ++ firstn count suf) ++ k2 :: rest) by now rewrite <- app_assoc, Hsplit.
    rewrite E in *. rewrite IH; [now rewrite Hsplit|exact Hc|exact Hs|now apply seek_suffix|].
    cbn [List.length] in *. lia.
Qed.

Theorem paging_complete : forall l count, 0 < count -> StronglySorted slt l ->
  all_pages (S (List.length l)) None count l = Some l.
Proof. intros l count Hc Hs. apply (all_pages_from _ [] l); auto. destruct count; [inversion Hc|]. rewrite Nat.mul_comm. cbn [Nat.mul]. lia. Qed.
End Pager.
