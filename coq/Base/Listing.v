(* Prefix listings of an object store over its key set (shared by the localfs model and the
   reference store of the core models). *)
From Coq Require Import List String Sorted.
From DM Require Import Base.Str Base.StrOrder.
Import ListNotations.
Open Scope list_scope.

(* first position of sub in s *)
Fixpoint find_sub (sub s : string) (fuel : nat) : option nat :=
  match fuel with
  | O => None
  | S f =>
      if starts_with sub s then Some 0
      else match s with
           | EmptyString => None
           | String _ t => option_map S (find_sub sub t f)
           end
  end.

Fixpoint take (n : nat) (s : string) : string :=
  match n, s with
  | O, _ => EmptyString
  | S n', String c t => String c (take n' t)
  | S _, EmptyString => EmptyString
  end.

(* the delimiter cut: keep the key up to and including the first delimiter after the prefix *)
Definition cut (prefix delim k : string) : string :=
  if String.eqb delim EmptyString then k
  else match find_sub delim (drop (String.length prefix) k) (S (String.length k)) with
       | Some i => take (String.length prefix + i + String.length delim) k
       | None => k
       end.

(* the listing of an object store: names under the prefix, cut after the first delimiter, each once, sorted *)
Definition list_keys (prefix delim : string) (keys : list string) : list string :=
  sort_uniq (map (cut prefix delim) (filter (starts_with prefix) keys)).


Lemma list_keys_sorted : forall p d ks, StronglySorted slt (list_keys p d ks).
Proof. intros. unfold list_keys. apply sort_uniq_sorted. Qed.

Lemma list_keys_exact : forall p d ks x,
  In x (list_keys p d ks) <-> exists k, In k ks /\ starts_with p k = true /\ x = cut p d k.
Proof.
  intros p d ks x. unfold list_keys. rewrite sort_uniq_In, in_map_iff. split.
  - intros [k [Hc Hin]]. apply filter_In in Hin. destruct Hin as [Hin Hp]. exists k. auto.
  - intros [k [Hin [Hp Hc]]]. exists k. split; [auto|]. apply filter_In. auto.
Qed.
