(* Byte-lexicographic order on strings (the order of Go string comparison and of object store
   listings): a strict total order; sorting with duplicate removal. *)
From Coq Require Import List String NArith Sorted Permutation Orders Mergesort.
Import ListNotations.
Open Scope string_scope.

Lemma ascii_compare_lt_trans : forall a b c, Ascii.compare a b = Lt -> Ascii.compare b c = Lt -> Ascii.compare a c = Lt.
Proof.
  unfold Ascii.compare. intros a b c H1 H2. apply N.compare_lt_iff in H1. apply N.compare_lt_iff in H2.
  apply N.compare_lt_iff. eapply N.lt_trans; eauto.
Qed.

Lemma ascii_compare_refl : forall a, Ascii.compare a a = Eq.
Proof. intros. unfold Ascii.compare. apply N.compare_refl. Qed.

Lemma str_compare_refl : forall s, String.compare s s = Eq.
Proof. induction s as [|a s IH]; cbn; [reflexivity|]. now rewrite ascii_compare_refl. Qed.

Lemma str_compare_lt_trans : forall a b c,
  String.compare a b = Lt -> String.compare b c = Lt -> String.compare a c = Lt.
Proof.
  induction a as [|x a IH]; intros b c H1 H2.
  - destruct b as [|y b]; [discriminate|]. destruct c as [|z c]; [discriminate|reflexivity].
  - destruct b as [|y b]; [discriminate|]. destruct c as [|z c]; [discriminate|].
    cbn in *. destruct (Ascii.compare x y) eqn:E1; try discriminate.
    + apply Ascii.compare_eq_iff in E1. subst y.
      destruct (Ascii.compare x z) eqn:E2; try discriminate; auto. eapply IH; eauto.
    + destruct (Ascii.compare y z) eqn:E2; try discriminate.
      * apply Ascii.compare_eq_iff in E2. subst z. now rewrite E1.
      * now rewrite (ascii_compare_lt_trans x y z E1 E2).
Qed.

Definition slt (a b : string) : Prop := String.ltb a b = true.

Lemma ltb_lt : forall a b, String.ltb a b = true <-> String.compare a b = Lt.
Proof. intros. unfold String.ltb. destruct (String.compare a b); split; intros; try discriminate; auto. Qed.

Lemma slt_trans : forall a b c, slt a b -> slt b c -> slt a c.
Proof. unfold slt. intros a b c H1 H2. apply ltb_lt in H1, H2. apply ltb_lt. eapply str_compare_lt_trans; eauto. Qed.

Lemma slt_irrefl : forall a, String.ltb a a = false.
Proof. intros. unfold String.ltb. now rewrite str_compare_refl. Qed.

Lemma ltb_antisym : forall a b, String.ltb a b = true -> String.ltb b a = false.
Proof.
  intros a b H. apply ltb_lt in H. unfold String.ltb. rewrite String.compare_antisym, H. reflexivity.
Qed.

Lemma str_trichotomy : forall a b, String.ltb a b = true \/ a = b \/ String.ltb b a = true.
Proof.
  intros a b. unfold String.ltb. destruct (String.compare a b) eqn:E.
  - right; left. now apply String.compare_eq_iff.
  - now left.
  - right; right. rewrite String.compare_antisym, E. reflexivity.
Qed.

Lemma leb_ltb_or_eq : forall a b, String.leb a b = true -> String.ltb a b = true \/ a = b.
Proof.
  intros a b H. unfold String.leb, String.ltb in *. destruct (String.compare a b) eqn:E; try discriminate.
  - right. now apply String.compare_eq_iff.
  - now left.
Qed.

Module StringOrder <: TotalLeBool.
  Definition t := string.
  Definition leb := String.leb.
  Theorem leb_total : forall a1 a2, leb a1 a2 = true \/ leb a2 a1 = true.
  Proof. exact String.leb_total. Qed.
End StringOrder.
Module Import StringSort := Sort StringOrder.

(* remove adjacent duplicates *)
Fixpoint uniq (l : list string) : list string :=
  match l with
  | [] => []
  | x :: t => match t with
              | [] => [x]
              | y :: _ => if String.eqb x y then uniq t else x :: uniq t
              end
  end.

Definition sort_uniq (l : list string) : list string := uniq (sort l).

Lemma uniq_In : forall l x, In x (uniq l) <-> In x l.
Proof.
  induction l as [|a l IH]; intros x; [tauto|].
  destruct l as [|b l'].
  - tauto.
  - cbn [uniq]. destruct (String.eqb a b) eqn:E.
    + apply String.eqb_eq in E. subst b. rewrite IH. split; [now right|intros [<-|H]; [now left|exact H]].
    + apply (or_iff_compat_l (a = x)), IH.
Qed.

Lemma uniq_head : forall b l, exists t, uniq (b :: l) = b :: t.
Proof.
  intros b l. revert b. induction l as [|c l IH]; intros b.
  - exists []. reflexivity.
  - cbn [uniq]. destruct (String.eqb b c) eqn:E.
    + apply String.eqb_eq in E. subst c. apply IH.
    + eexists. reflexivity.
Qed.

(* locally increasing is enough: slt is transitive *)
Lemma uniq_sorted : forall l, Sorted (fun a b => String.leb a b = true) l -> StronglySorted slt (uniq l).
Proof.
  intros l Hs. apply Sorted_StronglySorted; [exact slt_trans|].
  induction l as [|a l IH]; [constructor|].
  apply Sorted_inv in Hs. destruct Hs as [Hs Hhd]. specialize (IH Hs).
  destruct l as [|b l']; [repeat constructor|].
  change (uniq (a :: b :: l')) with (if String.eqb a b then uniq (b :: l') else a :: uniq (b :: l')).
  destruct (String.eqb a b) eqn:E; [exact IH|]. constructor; [exact IH|].
  destruct (uniq_head b l') as [t ->]. constructor.
  inversion Hhd as [|? ? Hab]; subst. destruct (leb_ltb_or_eq a b Hab) as [H|H]; [exact H|].
  subst. rewrite String.eqb_refl in E. discriminate.
Qed.

Lemma sort_uniq_sorted : forall l, StronglySorted slt (sort_uniq l).
Proof. intros. unfold sort_uniq. apply uniq_sorted. apply (Sorted_sort l). Qed.

Lemma sort_uniq_In : forall l x, In x (sort_uniq l) <-> In x l.
Proof.
  intros l x. unfold sort_uniq. rewrite uniq_In. split; intros H.
  - eapply Permutation_in; [apply Permutation_sym, Permuted_sort|exact H].
  - eapply Permutation_in; [apply Permuted_sort|exact H].
Qed.
