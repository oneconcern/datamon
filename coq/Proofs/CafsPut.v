(* Put as a function of the content and the store, and its effects on the blob store: non-empty
   blobs are never rewritten, a Put that finds all its blobs present changes nothing, the store
   afterwards holds the object, and the leaves can be read off the key list. *)
From Coq Require Import List NArith Arith Lia.
From DM Require Import Base.ListFacts Model.Cafs Proofs.CafsStore.
Import ListNotations.

(* lookup and put_over are ListFacts.aget and aset at bytes_eqb *)
Lemma lookup_put_over : forall k k' v s,
  lookup k' (put_over k v s) = if bytes_eqb k' k then Some v else lookup k' s.
Proof. exact (aget_aset bytes_eqb bytes_eqb_eq). Qed.

Lemma bytes_eqb_sym : forall a b, bytes_eqb a b = bytes_eqb b a.
Proof.
  intros a b. destruct (bytes_eqb a b) eqn:E1, (bytes_eqb b a) eqn:E2; auto.
  - apply bytes_eqb_eq in E1. subst. now rewrite bytes_eqb_refl in E2.
  - apply bytes_eqb_eq in E2. subst. now rewrite bytes_eqb_refl in E1.
Qed.

Lemma lookup_write_blob : forall k v s k',
  lookup k' (write_blob k v s) =
  match lookup k s with
  | Some (_ :: _) => lookup k' s
  | _ => if bytes_eqb k' k then Some v else lookup k' s
  end.
Proof. intros. unfold write_blob. destruct (lookup k s) as [[|x b]|]; auto using lookup_put_over. Qed.

Lemma write_blob_present : forall k v s x b,
  lookup k s = Some (x :: b) -> write_blob k v s = s.
Proof. intros k v s x b Hl. unfold write_blob. now rewrite Hl. Qed.

Lemma write_blob_other : forall k v s k', k <> k' -> lookup k' (write_blob k v s) = lookup k' s.
Proof.
  intros k v s k' Hne. rewrite lookup_write_blob.
  destruct (bytes_eqb k' k) eqn:E; [apply bytes_eqb_eq in E; congruence|].
  now destruct (lookup k s) as [[|]|].
Qed.

Lemma write_blob_keeps_nonempty : forall k v s k' x b,
  lookup k' s = Some (x :: b) -> lookup k' (write_blob k v s) = Some (x :: b).
Proof.
  intros k v s k' x b Hl. destruct (list_eq_dec N.eq_dec k k') as [->|Hne].
  - now rewrite (write_blob_present k' v s x b Hl).
  - now rewrite write_blob_other.
Qed.

Lemma write_blob_result : forall k v s,
  (lookup k s = None \/ lookup k s = Some [] \/ lookup k s = Some v) ->
  lookup k (write_blob k v s) = Some v.
Proof.
  intros k v s Hc. rewrite lookup_write_blob, bytes_eqb_refl.
  destruct Hc as [->|[->|Hs]]; [reflexivity..|]. rewrite Hs. now destruct v.
Qed.

Definition apply_writes (ws : list (list N * list N)) (s : bstore) : bstore :=
  fold_left (fun s kv => write_blob (fst kv) (snd kv) s) ws s.

Lemma apply_writes_keeps : forall ws s k x b,
  lookup k s = Some (x :: b) -> lookup k (apply_writes ws s) = Some (x :: b).
Proof.
  intros ws s k x b. apply (fold_left_inv (fun s' => lookup k s' = Some (x :: b))).
  intros s' w _. apply write_blob_keeps_nonempty.
Qed.

Lemma apply_writes_other : forall ws s k, ~ In k (map fst ws) ->
  lookup k (apply_writes ws s) = lookup k s.
Proof.
  intros ws s k Hn. apply (fold_left_inv (fun s' => lookup k s' = lookup k s)); [|reflexivity].
  intros s' w Hw <-. apply write_blob_other. intros <-. apply Hn, in_map, Hw.
Qed.

Lemma apply_writes_noop : forall ws s,
  (forall k v, In (k, v) ws -> exists x b, lookup k s = Some (x :: b)) -> apply_writes ws s = s.
Proof.
  intros ws s Hw. apply (fold_left_inv (fun s' => s' = s)); [|reflexivity].
  intros s' [k v] Hin ->. destruct (Hw k v Hin) as (x & b & Hl). exact (write_blob_present k v s x b Hl).
Qed.

(* no write of ws meets a different non-empty blob *)
Definition clean (s : bstore) (ws : list (list N * list N)) : Prop :=
  forall k v, In (k, v) ws -> lookup k s = None \/ lookup k s = Some [] \/ lookup k s = Some v.

Lemma apply_writes_holds : forall ws s, NoDup (map fst ws) -> clean s ws ->
  forall k v, In (k, v) ws -> lookup k (apply_writes ws s) = Some v.
Proof.
  induction ws as [|[k0 v0] ws IH]; intros s Hnd Hc k v Hin; [destruct Hin|].
  apply NoDup_cons_iff in Hnd. destruct Hnd as [Hn0 Hnd]. cbn.
  destruct Hin as [Heq|Hin].
  - inversion Heq; subst k0 v0. rewrite apply_writes_other by exact Hn0.
    apply write_blob_result. apply Hc. now left.
  - apply IH; auto. intros k' v' Hin'.
    assert (Hne : k0 <> k').
    { intros ->. apply Hn0. apply in_map_iff. exists (k', v'). auto. }
    rewrite write_blob_other by exact Hne. apply Hc. now right.
Qed.

Section PutFacts.
Variable H : N -> N -> N -> bool -> list N -> list N.
Variable L : nat.
(* the sequence of blob writes of a Put, as a list *)
Definition blob_writes (lv : list (list N)) : list (list N * list N) :=
  let kv := keys_of_leaves H L 0 lv in
  combine kv lv ++ [(root_of H L kv, concat kv ++ root_of H L kv)].

Lemma hkey_inj : forall lv i j d d', nocoll H L lv -> nth_error lv i = Some d ->
  hkey H L i d = hkey H L j d' -> i = j /\ d = d'.
Proof.
  intros lv i j d d' Hnc Hn E. rewrite !hkey_as_H in E.
  apply (Hnc _ _ _ _ _ _ _ _ (honest_leaf_in H L lv i d Hn)) in E. destruct E as [Eo [_ [Eb Ex]]]. subst d'.
  split; auto. destruct (Nat.eqb (length d) L); lia.
Qed.

Lemma hkey_not_root : forall lv i d ks, nocoll H L lv -> nth_error lv i = Some d ->
  hkey H L i d <> root_of H L ks.
Proof.
  intros lv i d ks Hnc Hn E. rewrite hkey_as_H in E. unfold root_of in E.
  apply (Hnc _ _ _ _ _ _ _ _ (honest_leaf_in H L lv i d Hn)) in E. destruct E as [_ [Ed _]]. discriminate.
Qed.

(* the leaves can be read off the key list *)
Lemma keys_inj_from : forall l1 l2 pre, nocoll H L (pre ++ l1) ->
  keys_of_leaves H L (length pre) l1 = keys_of_leaves H L (length pre) l2 -> l1 = l2.
Proof.
  induction l1 as [|d1 l1 IH]; intros l2 pre Hnc E; destruct l2 as [|d2 l2]; try discriminate; [reflexivity|].
  rewrite !keys_of_leaves_cons in E. injection E as Ek Et.
  apply (hkey_inj (pre ++ d1 :: l1)) in Ek; [|exact Hnc|now rewrite nth_error_app2, Nat.sub_diag by lia].
  destruct Ek as [_ <-]. f_equal. apply (IH l2 (pre ++ [d1])).
  - now rewrite <- app_assoc.
  - now rewrite app_length, Nat.add_1_r.
Qed.

Lemma keys_inj : forall l1 l2, nocoll H L l1 ->
  keys_of_leaves H L 0 l1 = keys_of_leaves H L 0 l2 -> l1 = l2.
Proof. intros l1 l2. exact (keys_inj_from l1 l2 []). Qed.

Lemma keys_nodup : forall lv, nocoll H L lv -> NoDup (keys_of_leaves H L 0 lv).
Proof.
  intros lv Hnc. apply NoDup_nth_error. intros i j Hi E. rewrite keys_length in Hi.
  rewrite !nth_error_keys in E. cbn [Nat.add] in E.
  destruct (nth_error lv i) as [d|] eqn:Hd; [|apply nth_error_None in Hd; lia].
  destruct (nth_error lv j) as [d'|]; [|discriminate]. injection E as E.
  now apply (hkey_inj lv i j d d' Hnc Hd).
Qed.

Lemma root_not_in_keys : forall lv ks, nocoll H L lv -> ~ In (root_of H L ks) (keys_of_leaves H L 0 lv).
Proof.
  intros lv ks Hnc Hin. apply In_nth_error in Hin. destruct Hin as [i E].
  rewrite nth_error_keys in E. destruct (nth_error lv i) as [d|] eqn:Hd; [|discriminate].
  injection E as E. exact (hkey_not_root lv i d ks Hnc Hd E).
Qed.

Lemma blob_writes_nodup : forall lv, nocoll H L lv -> NoDup (map fst (blob_writes lv)).
Proof.
  intros lv Hnc. unfold blob_writes. rewrite map_app, map_fst_combine by (now rewrite keys_length). cbn [map fst].
  apply NoDup_snoc; [now apply keys_nodup|]. now apply root_not_in_keys.
Qed.

Lemma holds_writes : forall s c, holds H L s c <->
  forall k v, In (k, v) (blob_writes (split_leaves L c)) -> lookup k s = Some v.
Proof.
  intros s c. unfold holds, blob_writes. cbv zeta. rewrite Forall2_combine, keys_length. split.
  - intros [Hr [_ Hl]] k v Hin. apply in_app_or in Hin. destruct Hin as [Hin|[E|[]]]; [now apply Hl|].
    inversion E; subst. exact Hr.
  - intros Hw. split; [apply Hw, in_or_app; right; now left|]. split; [reflexivity|].
    intros k d Hin. apply Hw, in_or_app. now left.
Qed.

Hypothesis Lpos : 0 < L.

Lemma write_full_as_fold : forall ls i s,
  write_full H L i ls s = apply_writes (combine (full_keys H L i ls) ls) s.
Proof. induction ls as [|d ls IH]; intros i s; cbn; [reflexivity|]. now apply IH. Qed.

Lemma full_keys_length : forall ls i, length (full_keys H L i ls) = length ls.
Proof. induction ls as [|d ls IH]; intros i; cbn; [reflexivity|]. now rewrite IH. Qed.

Lemma leaf_writes_as_fold : forall full part s,
  apply_writes (combine (leaf_keys H L full part) (full ++ match part with [] => [] | _ => [part] end)) s =
  match part with
  | [] => write_full H L 0 full s
  | _ => write_blob (part_key H L (length full) part) part (write_full H L 0 full s)
  end.
Proof.
  intros. unfold leaf_keys, apply_writes. rewrite combine_app by apply full_keys_length.
  rewrite fold_left_app, write_full_as_fold. now destruct part.
Qed.

(* what Put answers and leaves behind, in terms of the content alone *)
Definition put_of (c : list N) (s : bstore) : put_res :=
  let lv := split_leaves L c in let kv := keys_of_leaves H L 0 lv in
  let s2 := apply_writes (combine kv lv) s in
  {| pr_written := length c; pr_key := root_of H L kv; pr_keys := kv;
     pr_found := found_nonempty (root_of H L kv) s2;
     pr_store := write_blob (root_of H L kv) (concat kv ++ root_of H L kv) s2 |}.

(* Put terminates, and its whole answer is the same whatever the chunking *)
Theorem put_eq : forall chunks s, put H L chunks s = Ok (put_of (concat chunks) s).
Proof.
  intros chunks s. unfold put, put_of.
  destruct (write_all_empty L Lpos chunks) as (w & H1 & H2 & H3 & H4).
  rewrite H1, <- H2.
  rewrite <- (leaf_keys_of_leaves H L Lpos (w_leaves w) (w_buf w) H3 H4), (split_leaves_spec L Lpos _ _ H3 H4).
  cbv zeta. now rewrite leaf_writes_as_fold.
Qed.

Lemma put_store : forall c s, pr_store (put_of c s) = apply_writes (blob_writes (split_leaves L c)) s.
Proof. intros. unfold put_of, blob_writes, apply_writes. cbv zeta. now rewrite fold_left_app. Qed.

(* a Put that finds a non-empty blob under every key it writes reports a duplicate and changes
   nothing, whatever those blobs are *)
Lemma put_settled : forall c s,
  (forall k v, In (k, v) (blob_writes (split_leaves L c)) -> exists x b, lookup k s = Some (x :: b)) ->
  pr_found (put_of c s) = true /\ pr_store (put_of c s) = s.
Proof.
  intros c s Hw. unfold blob_writes in Hw. unfold put_of. cbv zeta in *. cbn [pr_found pr_store].
  set (kv := keys_of_leaves H L 0 (split_leaves L c)) in *.
  rewrite apply_writes_noop by (intros k v Hin; apply (Hw k v), in_or_app; now left).
  destruct (Hw (root_of H L kv) (concat kv ++ root_of H L kv)) as (x & b & Hr); [apply in_or_app; right; now left|].
  unfold found_nonempty. rewrite Hr. split; [reflexivity|]. exact (write_blob_present _ _ s x b Hr).
Qed.

Theorem put_holds : forall chunks s r, nocoll H L (split_leaves L (concat chunks)) ->
  clean s (blob_writes (split_leaves L (concat chunks))) ->
  put H L chunks s = Ok r -> holds H L (pr_store r) (concat chunks).
Proof.
  intros chunks s r Hnc Hc Hp. rewrite put_eq in Hp. injection Hp as <-.
  apply holds_writes. rewrite put_store. apply (apply_writes_holds _ s); [|exact Hc].
  now apply blob_writes_nodup.
Qed.

Hypothesis H_len : forall l o d b x, length (H l o d b x) = KS.

(* no blob of an object is empty: leaves are not, and the root blob ends with a key *)
Lemma blob_writes_nonempty : forall c lv k v, split_leaves L c = lv -> In (k, v) (blob_writes lv) -> v <> [].
Proof.
  intros c lv k v Hlv Hin Ev. subst v. unfold blob_writes in Hin. apply in_app_or in Hin. destruct Hin as [Hin|[E|[]]].
  - apply in_combine_r, In_nth_error in Hin. destruct Hin as [i Hd].
    destruct (leaf_length L Lpos c lv Hlv i [] Hd) as [Hlen _]. cbn in Hlen. lia.
  - injection E as _ E'. apply app_eq_nil in E'. destruct E' as [_ E'].
    pose proof (H_len (LN L) 0%N 1%N true (concat (keys_of_leaves H L 0 lv))) as Hl.
    fold (root_of H L (keys_of_leaves H L 0 lv)) in Hl. rewrite E' in Hl. discriminate.
Qed.

Lemma holds_settled : forall s c, holds H L s c ->
  forall k v, In (k, v) (blob_writes (split_leaves L c)) -> exists x b, lookup k s = Some (x :: b).
Proof.
  intros s c Hh k v Hin. rewrite (proj1 (holds_writes s c) Hh k v Hin).
  destruct v as [|x b]; [|eauto]. now destruct (blob_writes_nonempty c _ k [] eq_refl Hin).
Qed.

End PutFacts.
