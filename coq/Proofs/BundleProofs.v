(* Proofs about Model/Bundle.v: index-file layout, reassembly, which files become entries, and
   the steps of the upload/download round trip at the level of entries. *)
From Coq Require Import List String Bool Arith Lia.
From DM Require Import Base.ListFacts Model.PathsParse Model.Meta Model.Bundle.
Import ListNotations.
Open Scope list_scope.

(* Model/Bundle.chunk is ListFacts.chunks (there the size is a parameter outside the fixpoint) *)
Lemma chunk_chunks : forall E l, chunk E l = chunks E l.
Proof.
  intros E l. unfold chunk, chunks. generalize (List.length l) as fuel. intros fuel. revert l.
  induction fuel as [|f IH]; intros l; [reflexivity|]. cbn [chunk_fuel chunks_fuel]. now rewrite IH.
Qed.

Theorem chunk_concat : forall E l, 0 < E -> List.concat (chunk E l) = l.
Proof. intros E l HE. rewrite chunk_chunks. now apply chunks_concat. Qed.

Lemma nth_error_nth_chunk : forall (c : list (list entry)) i, i < List.length c -> nth_error c i = Some (nth i c []).
Proof. intros. now apply nth_error_nth'. Qed.

(* the reader's count checks accept a layout whose lists but the last are full and whose last is not
   overfull, wherever the lists are fetched from *)
Lemma unpack_layout : forall E (cs : list (list entry)) idx (get : nat -> option (list entry)),
  (forall j, j < List.length cs -> get (idx + j) = Some (nth j cs [])) ->
  (forall j, S j < List.length cs -> List.length (nth j cs []) = E) ->
  (cs <> [] -> List.length (last cs []) <= E) ->
  unpack_lists E (List.length cs) idx get = Some (List.concat cs).
Proof.
  intros E cs. induction cs as [|c cs IH]; intros idx get Hget Hfull Hlast; [reflexivity|].
  cbn [List.length unpack_lists List.concat].
  pose proof (Hget 0 (Nat.lt_0_succ _)) as H0. rewrite Nat.add_0_r in H0. cbn [nth] in H0. rewrite H0.
  destruct cs as [|c2 cs'].
  - cbn [last] in Hlast. specialize (Hlast ltac:(discriminate)).
    rewrite (proj2 (Nat.ltb_ge _ _) Hlast). now rewrite app_nil_r.
  - pose proof (Hfull 0 (proj1 (Nat.succ_lt_mono _ _) (Nat.lt_0_succ _))) as Hc. cbn [nth] in Hc. rewrite Hc, Nat.eqb_refl.
    rewrite (IH (S idx) get); auto.
    + intros j Hj. rewrite Nat.add_succ_comm. exact (Hget (S j) (proj1 (Nat.succ_lt_mono _ _) Hj)).
    + intros j Hj. exact (Hfull (S j) (proj1 (Nat.succ_lt_mono _ _) Hj)).
    + intros _. apply Hlast. discriminate.
Qed.

Lemma chunk_layout : forall E l, 0 < E ->
  (forall j, S j < List.length (chunk E l) -> List.length (nth j (chunk E l) []) = E) /\
  (chunk E l <> [] -> List.length (last (chunk E l) []) <= E).
Proof.
  intros E l HE. rewrite chunk_chunks. split.
  - intros j Hj. destruct (chunks_nth E HE l j _ (nth_error_nth' _ [] (Nat.lt_succ_l _ _ Hj))) as [_ Hlast].
    destruct (Nat.eq_dec (List.length (nth j (chunks E l) [])) E) as [Ej|Ej]; [exact Ej|]. apply Hlast in Ej. lia.
  - intros Hne. apply (Forall_last (fun d => List.length d <= E) _ [] Hne), Forall_forall.
    intros d Hin. apply In_nth_error in Hin. destruct Hin as [i Hi]. now apply (chunks_nth E HE l i d Hi).
Qed.

Theorem unpack_chunk : forall E l, 0 < E ->
  unpack_lists E (List.length (chunk E l)) 0 (nth_error (chunk E l)) = Some l.
Proof.
  intros E l HE. transitivity (Some (List.concat (chunk E l))); [|now rewrite chunk_concat].
  apply unpack_layout; try apply chunk_layout; auto. intros j Hj. now apply nth_error_nth'.
Qed.

(* find_file is ListFacts.kfind at the file name *)
Lemma find_file_in : forall n fs f, find_file n fs = Some f -> In f fs /\ f_name f = n.
Proof. exact (kfind_some String.eqb f_name String.eqb_eq). Qed.

Lemma find_file_self : forall fs f, NoDup (map f_name fs) -> In f fs -> find_file (f_name f) fs = Some f.
Proof. exact (kfind_self String.eqb f_name String.eqb_eq). Qed.

(* uploading every file of the tree: one entry per non-generated file, in walk order *)
Theorem upload_all : forall fs skip, NoDup (map f_name fs) ->
  upload_entries (map f_name fs) fs skip =
  Some (map entry_of (filter (fun f => negb (is_generated (f_name f))) fs)).
Proof.
  intros fs skip Hnd.
  assert (Hgen : forall sub, (forall f, In f sub -> In f fs) ->
            upload_entries (map f_name sub) fs skip =
            Some (map entry_of (filter (fun f => negb (is_generated (f_name f))) sub))).
  { induction sub as [|f sub IH]; intros Hsub; [reflexivity|].
    cbn [map upload_entries filter]. rewrite (find_file_self fs f Hnd (Hsub f (or_introl eq_refl))).
    rewrite IH by (intros; apply Hsub; now right).
    destruct (is_generated (f_name f)); reflexivity. }
  apply Hgen. auto.
Qed.

(* what one name of an explicit key list contributes *)
Definition listed (fs : list file) (n : string) : list file :=
  if is_generated n then [] else match find_file n fs with Some f => [f] | None => [] end.

Lemma upload_entries_eq : forall names fs skip,
  upload_entries names fs skip =
  if existsb (fun n => negb (is_generated n || skip) && match find_file n fs with None => true | Some _ => false end) names
  then None else Some (map entry_of (flat_map (listed fs) names)).
Proof.
  induction names as [|n names IH]; intros fs skip; cbn [upload_entries existsb flat_map]; [reflexivity|].
  rewrite IH. generalize (flat_map (listed fs) names). intros rest. unfold listed.
  destruct (existsb _ names), (find_file n fs), (is_generated n), skip; reflexivity.
Qed.

Lemma download_files_spec : forall es sel acc,
  NoDup (map fst acc ++ map e_name (filter (fun e => sel (e_name e)) es)) ->
  download_files es sel acc = Some (acc ++ map (fun e => (e_name e, e_hash e)) (filter (fun e => sel (e_name e)) es)).
Proof.
  induction es as [|e es IH]; intros sel acc Hnd; cbn [download_files filter map].
  - now rewrite app_nil_r.
  - cbn [filter] in Hnd. destruct (sel (e_name e)) eqn:Es.
    + assert (Hnot : existsb (fun p => String.eqb (fst p) (e_name e)) acc = false).
      { destruct (existsb _ acc) eqn:Ex; [|reflexivity]. apply existsb_exists in Ex.
        destruct Ex as [p [Hp Heq]]. apply String.eqb_eq in Heq.
        apply NoDup_remove_2 in Hnd. exfalso. apply Hnd. apply in_or_app. left. rewrite <- Heq. now apply in_map. }
      rewrite Hnot. rewrite IH.
      * now rewrite <- app_assoc.
      * rewrite map_app, <- app_assoc. exact Hnd.
    + apply IH. exact Hnd.
Qed.

Theorem download_selected : forall es sel, NoDup (map e_name es) ->
  download_files es sel [] = Some (map (fun e => (e_name e, e_hash e)) (filter (fun e => sel (e_name e)) es)).
Proof.
  intros es sel Hnd. rewrite download_files_spec; [reflexivity|]. now apply NoDup_map_filter.
Qed.

(* selecting among the entries of the non-generated files is selecting among the files *)
Lemma selected_uploaded : forall (sel : string -> bool) fs,
  map (fun e => (e_name e, e_hash e))
      (filter (fun e => sel (e_name e)) (map entry_of (filter (fun f => negb (is_generated (f_name f))) fs))) =
  map (fun f => (f_name f, f_hash f)) (filter (fun f => negb (is_generated (f_name f)) && sel (f_name f)) fs).
Proof.
  intros sel fs. induction fs as [|f fs IH]; cbn; [reflexivity|].
  destruct (is_generated (f_name f)); cbn; [exact IH|]. destruct (sel (f_name f)); cbn; [now rewrite IH|exact IH].
Qed.
