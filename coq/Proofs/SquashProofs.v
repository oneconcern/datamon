(* Squash: which bundles are its victims; squash_stores says in one equation what it does to the
   two stores (the victims deleted, then the labels of vanished bundles pruned); what those two steps
   remove and leave. *)
From Coq Require Import List String NArith Bool Arith Lia.
From DM Require Import Base.ListFacts Base.Str Gen.Paths Model.Meta Model.RepoOps Proofs.RepoProofs.
Import ListNotations.
Open Scope list_scope.

Definition squash_victims (bs labelled : list string) (n : nat) : list string :=
  filter (fun id => negb (existsb (String.eqb id) labelled)) (firstn (List.length bs - n) bs).

Theorem victims_exact : forall (bs labelled : list string) n id, NoDup bs ->
  (In id (squash_victims bs labelled n) <->
   In id bs /\ ~ In id (skipn (List.length bs - n) bs) /\ existsb (String.eqb id) labelled = false).
Proof.
  intros bs labelled n id Hnd. unfold squash_victims. rewrite filter_In, negb_true_iff.
  rewrite <- (firstn_skipn (List.length bs - n) bs) in Hnd. apply NoDup_app_iff in Hnd. destruct Hnd as (_ & _ & Hd).
  split.
  - intros [Hin Hl]. split; [now apply In_firstn in Hin|]. split; [now apply Hd|exact Hl].
  - intros [Hin [Hns Hl]]. split; [|exact Hl].
    rewrite <- (firstn_skipn (List.length bs - n) bs) in Hin. apply in_app_or in Hin. tauto.
Qed.

Lemma victims_NoDup : forall (bs labelled : list string) n, NoDup bs -> NoDup (squash_victims bs labelled n).
Proof.
  intros bs labelled n Hnd. unfold squash_victims. apply NoDup_filter.
  rewrite <- (firstn_skipn (List.length bs - n) bs) in Hnd. eapply NoDup_app_l. exact Hnd.
Qed.

Lemma victims_incl : forall (bs labelled : list string) n v, In v (squash_victims bs labelled n) -> In v bs.
Proof. intros bs labelled n v H. apply filter_In in H. destruct H as [H _]. now apply In_firstn in H. Qed.

(* the bundles a mode keeps for their labels: the match that squash, and the statements of
   C10_victims_gone and C10_kept_intact, spell out *)
Definition retained (r : string) (mode : tagmode) (sv : list string) (w : wstate) : list string :=
  match mode with
  | TNone => []
  | TAll => map snd (labels_of r EmptyString w)
  | TSemver => map snd (filter (fun l => existsb (String.eqb (fst l)) sv) (labels_of r EmptyString w))
  end.

Definition prune_labels (r : string) (kept : list string) (ls : list (string * string)) (v : mstore) : mstore :=
  fold_left (fun v l => if existsb (String.eqb (snd l)) kept then v
                        else snd (mdelete (GetArchivePathToLabel r (fst l)) v)) ls v.

(* squash has this shape: two early exits that leave w, then the work *)
Lemma snd_if_if : forall {A B} (b1 b2 : bool) (c1 c2 c3 : A) (x y : B),
  snd (if b1 then (c1, x) else if b2 then (c2, x) else (c3, y)) = if b1 || b2 then x else y.
Proof. now intros A B [|] [|]. Qed.

Lemma squash_stores : forall r n mode sv w,
  let n' := if Nat.eqb n 0 then 1 else n in
  snd (squash r n mode sv w) =
  if negb (repo_exists r w) || Nat.ltb (List.length (bundles_of r w)) (S n') then w else
  let w1 := with_meta w (fold_left (fun m id => delete_bundle_quiet r id m)
                                   (squash_victims (bundles_of r w) (retained r mode sv w) n') (w_meta w)) in
  with_vmeta w1 (prune_labels r (bundles_of r w1) (labels_of r EmptyString w1) (w_vmeta w1)).
Proof.
  intros r n mode sv w n'.
  exact (snd_if_if _ _ RErr ROk ROk w _).
Qed.

Lemma squash_runs : forall r (n' : nat) w, repo_exists r w = true -> n' < List.length (bundles_of r w) ->
  negb (repo_exists r w) || Nat.ltb (List.length (bundles_of r w)) (S n') = false.
Proof. intros r n' w -> H. apply Nat.ltb_ge. lia. Qed.

Lemma delete_bundle_descriptor_gone : forall r id m, mget (GetArchivePathToBundle r id) (delete_bundle_quiet r id m) = None.
Proof. intros. unfold delete_bundle_quiet. apply mget_mdelete_same. Qed.

(* a deleted bundle's descriptor is gone, however often and among whatever other bundles it is deleted *)
Lemma delete_bundles_gone : forall ids r m id,
  noslash id = true -> (forall v, In v ids -> noslash v = true) -> In id ids ->
  mget (GetArchivePathToBundle r id) (fold_left (fun m v => delete_bundle_quiet r v m) ids m) = None.
Proof.
  induction ids as [|v ids IH]; intros r m id Hid Hns Hin; [destruct Hin|]. cbn [fold_left].
  destruct (in_dec string_dec id ids) as [Hin'|Hnin].
  - apply IH; auto. intros; apply Hns; now right.
  - destruct Hin as [->|Hin]; [|contradiction].
    rewrite delete_bundles_frame; [apply delete_bundle_descriptor_gone|].
    intros v Hv. apply (other_bundle_not_under r v id); auto.
    + apply Hns. now right.
    + intros ->. contradiction.
    + apply descriptor_under.
Qed.

Lemma prune_labels_frame : forall ls r kept v k,
  (forall l, In l ls -> existsb (String.eqb (snd l)) kept = false -> k <> GetArchivePathToLabel r (fst l)) ->
  mget k (prune_labels r kept ls v) = mget k v.
Proof.
  intros ls r kept v k H. apply mget_fold_frame. intros l v' Hl.
  destruct (existsb (String.eqb (snd l)) kept) eqn:E; [reflexivity|].
  apply mget_mdelete_other. apply not_eq_sym. now apply H.
Qed.

(* the pruning only deletes: what is absent stays absent *)
Lemma prune_labels_none : forall ls r kept v k, mget k v = None -> mget k (prune_labels r kept ls v) = None.
Proof.
  intros ls r kept v k. unfold prune_labels. apply (fold_left_inv (fun v' => mget k v' = None)). intros v' y _ H.
  destruct (existsb _ _); [exact H|now apply mget_mdelete_none].
Qed.

Lemma prune_labels_gone : forall ls r kept v l,
  In l ls -> existsb (String.eqb (snd l)) kept = false ->
  mget (GetArchivePathToLabel r (fst l)) (prune_labels r kept ls v) = None.
Proof.
  induction ls as [|x ls IH]; intros r kept v l Hin Hl; [destruct Hin|].
  destruct Hin as [->|Hin]; [|now apply IH].
  unfold prune_labels. cbn [fold_left]. rewrite Hl. apply prune_labels_none, mget_mdelete_same.
Qed.

(* the premises are met by a concrete repository: three bundles, one labelled; retain 1 with labels
   kept removes exactly the middle one *)
Example squash_example :
  let e := {| e_name := "f"; e_hash := "h"; e_size := 1%N |} in
  let w0 := {| w_meta := []; w_vmeta := [] |} in
  let w1 := snd (create_repo "r" w0) in
  let w2 := snd (upload "r" "b1" [e] 1000 w1) in
  let w3 := snd (upload "r" "b2" [e] 1000 w2) in
  let w4 := snd (upload "r" "b3" [e] 1000 w3) in
  let w := snd (set_label "r" "v1" "b1" w4) in
  repo_exists "r" w = true /\ bundles_of "r" w = ["b1"; "b2"; "b3"]%string /\
  squash_victims (bundles_of "r" w) (map snd (labels_of "r" EmptyString w)) 1 = ["b2"%string] /\
  bundles_of "r" (snd (squash "r" 1 TAll [] w)) = ["b1"; "b3"]%string /\
  mget (GetArchivePathToBundle "r" "b2") (w_meta (snd (squash "r" 1 TAll [] w))) = None /\
  labels_of "r" EmptyString (snd (squash "r" 1 TAll [] w)) = [("v1", "b1")]%string.
Proof. vm_compute. repeat split; reflexivity. Qed.
