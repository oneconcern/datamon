(* C06: create-if-absent programs (Model/Atomic.v) never alter what exists and touch only the keys
   they name; the write program of a bundle, run on a free directory, leaves the bundle stored; the
   upload of the repository model runs that program; the operations that only create extend the
   metadata store. *)
From Coq Require Import List String NArith Bool Lia Permutation.
From DM Require Import Base.ListFacts Gen.Paths Model.Meta Model.Bundle Model.RepoOps Model.Atomic Model.WorldCheck
  Proofs.RepoProofs Proofs.DeleteFiles.
Import ListNotations.
Open Scope list_scope.

Lemma apply_excl_extends : forall ws m, extends m (apply_excl ws m).
Proof.
  induction ws as [|[k0 v0] ws IH]; intros m; cbn [apply_excl]; [apply extends_refl|].
  pose proof (extends_mput_excl k0 v0 m) as H.
  destruct (mput k0 v0 true m) as [[|] m']; [|apply extends_refl]. eapply extends_trans; [exact H|apply IH].
Qed.

Lemma apply_excl_frame : forall ws m k, ~ In k (map fst ws) -> mget k (apply_excl ws m) = mget k m.
Proof.
  induction ws as [|[k0 v0] ws IH]; intros m k H; cbn [apply_excl]; [reflexivity|].
  pose proof (mget_mput_other k0 v0 true m k) as H0.
  destruct (mput k0 v0 true m) as [[|] m']; [|reflexivity].
  rewrite IH by (intros Hin; apply H; now right). apply H0. intros Eq. apply H. now left.
Qed.

Lemma apply_excl_fresh : forall ws m, NoDup (map fst ws) -> (forall k, In k (map fst ws) -> mget k m = None) ->
  forall k v, In (k, v) ws -> mget k (apply_excl ws m) = Some v.
Proof.
  induction ws as [|[k0 v0] ws IH]; intros m Hnd Hfresh k v Hin; [destruct Hin|].
  cbn [apply_excl]. apply NoDup_cons_iff in Hnd. destruct Hnd as [Hnot Hnd].
  rewrite mput_excl. unfold mhas. rewrite (Hfresh k0) by now left.
  destruct Hin as [Heq|Hin].
  - inversion Heq. apply apply_excl_extends. cbn [mget]. now rewrite String.eqb_refl.
  - apply IH; auto. intros k' Hk'. cbn [mget]. rewrite string_eqb_other by (intros ->; contradiction).
    apply Hfresh. now right.
Qed.

(* the write program of a bundle whose file lists are ls: the lists, then the descriptor;
   upload_writes r id es E is bundle_writes r id (chunk E es) by unfolding *)
Definition bundle_writes (r id : string) (ls : list (list entry)) : list (string * mval) :=
  index_writes r id 0 ls ++ [(GetArchivePathToBundle r id, VBundle id (N.of_nat (List.length ls)))].

Lemma index_writes_keys : forall cs r id i,
  NoDup (map fst (index_writes r id i cs)) /\
  (forall k, In k (map fst (index_writes r id i cs)) -> exists j, (i <= j)%N /\ k = GetArchivePathToBundleFileList r id j).
Proof.
  induction cs as [|c cs IH]; intros r id i; [split; [constructor|intros k []]|].
  destruct (IH r id (i + 1)%N) as [Hnd Hge]. split.
  - constructor; [|exact Hnd]. intros Hin. destruct (Hge _ Hin) as [j [Hj Ej]]. apply filelist_key_inj in Ej. lia.
  - intros k [<-|Hin]; [exists i; split; [lia|reflexivity]|]. destruct (Hge _ Hin) as [j [Hj Ej]]. exists j. split; [lia|exact Ej].
Qed.

Lemma index_writes_length : forall cs r id i, List.length (index_writes r id i cs) = List.length cs.
Proof. induction cs as [|c cs IH]; intros; cbn [index_writes List.length]; [reflexivity|]. now rewrite IH. Qed.

Lemma index_writes_nth : forall cs r id i j c, nth_error cs j = Some c ->
  In (GetArchivePathToBundleFileList r id (i + N.of_nat j), VIndex c) (index_writes r id i cs).
Proof.
  induction cs as [|c0 cs IH]; intros r id i j c H; [destruct j; discriminate|].
  destruct j as [|j].
  - inversion H. left. now rewrite N.add_0_r.
  - right. rewrite Nat2N.inj_succ, <- N.add_1_l, N.add_assoc. now apply IH.
Qed.

Lemma bundle_writes_nodup : forall r id ls, NoDup (map fst (bundle_writes r id ls)).
Proof.
  intros r id ls. unfold bundle_writes. rewrite map_app. apply NoDup_snoc; [apply index_writes_keys|].
  intros Hin. destruct (proj2 (index_writes_keys _ _ _ _) _ Hin) as [j [_ Hj]].
  exact (filelist_not_own_descriptor r id j (eq_sym Hj)).
Qed.

Lemma bundle_writes_under : forall r id ls k, In k (map fst (bundle_writes r id ls)) -> under_bundle r id k = true.
Proof.
  intros r id ls k H. unfold bundle_writes in H. rewrite map_app in H. apply in_app_or in H. destruct H as [H|H].
  - destruct (proj2 (index_writes_keys _ _ _ _) _ H) as [j [_ ->]]. apply filelist_under.
  - destruct H as [<-|[]]. apply descriptor_under.
Qed.

Lemma bundle_written : forall r id ls ws m,
  Permutation ws (bundle_writes r id ls) -> (forall k, under_bundle r id k = true -> mget k m = None) ->
  stored r id ls (apply_excl ws m).
Proof.
  intros r id ls ws m Hp Hfree.
  assert (Hw : forall k v, In (k, v) (bundle_writes r id ls) -> mget k (apply_excl ws m) = Some v).
  { intros k v Hin. apply apply_excl_fresh.
    - apply (Permutation_NoDup (Permutation_sym (Permutation_map fst Hp))), bundle_writes_nodup.
    - intros k' Hk. apply Hfree, (bundle_writes_under r id ls). exact (Permutation_in k' (Permutation_map fst Hp) Hk).
    - exact (Permutation_in _ (Permutation_sym Hp) Hin). }
  split; [apply Hw, in_or_app; right; now left|]. intros j Hj. apply Hw, in_or_app. left.
  change (N.of_nat j) with (0 + N.of_nat j)%N. now apply index_writes_nth, nth_error_nth'.
Qed.

Lemma upload_writes_length : forall r id es E, List.length (upload_writes r id es E) = S (List.length (chunk E es)).
Proof. intros. unfold upload_writes. rewrite app_length, index_writes_length. cbn. lia. Qed.

(* before the last write of an upload, only file lists have been written *)
Lemma interrupted_keys : forall r id es E n k, n < List.length (upload_writes r id es E) ->
  In k (map fst (firstn n (upload_writes r id es E))) -> exists j, k = GetArchivePathToBundleFileList r id j.
Proof.
  intros r id es E n k Hn Hin. rewrite upload_writes_length in Hn. unfold upload_writes in Hin.
  rewrite firstn_app, index_writes_length in Hin. replace (n - List.length (chunk E es)) with 0 in Hin by lia.
  rewrite app_nil_r, <- firstn_map in Hin. apply In_firstn in Hin.
  destruct (proj2 (index_writes_keys _ _ _ _) _ Hin) as [j [_ Hj]]. now exists j.
Qed.

Lemma put_indexes_apply : forall cs r id i m m' rest, put_indexes r id i cs m = Some m' ->
  apply_excl (index_writes r id i cs ++ rest) m = apply_excl rest m'.
Proof.
  induction cs as [|c cs IH]; intros r id i m m' rest H; cbn [put_indexes index_writes apply_excl app] in *; [now inversion H|].
  destruct (mput (GetArchivePathToBundleFileList r id i) (VIndex c) true m) as [[|] m1]; [|discriminate]. now apply IH.
Qed.

(* with either result: a refused descriptor write changes nothing more *)
Lemma upload_cases : forall r id es E w,
  upload r id es E w = (RErr, w) \/
  exists c, upload r id es E w = (c, with_meta w (apply_excl (upload_writes r id es E) (w_meta w))).
Proof.
  intros r id es E w. unfold upload. destruct (negb (repo_exists r w)); [auto|].
  destruct (put_indexes r id 0 (chunk E es) (w_meta w)) as [m|] eqn:Ep; [|auto]. right.
  unfold upload_writes. rewrite (put_indexes_apply _ _ _ _ _ _ _ Ep). cbn [apply_excl].
  destruct (mput (GetArchivePathToBundle r id) _ true m) as [[|] m1]; eauto.
Qed.

(* the operations that only create: all but delete-repo / rename / delete-files / squash *)
Definition preserving (o : wop) : bool :=
  match o with
  | ODeleteRepo _ | ORename _ _ | ODeleteEntries _ _ | OSquash _ _ _ _ => false
  | _ => true
  end.

Lemma step_extends : forall E o w, preserving o = true -> extends (w_meta w) (w_meta (fst (wstep_model E w o))).
Proof.
  intros E o w Hp. destruct o; try discriminate Hp; cbn [wstep_model]; try apply extends_refl.
  - (* create-repo *) unfold create_repo. pose proof (extends_mput_excl (GetArchivePathToRepoDescriptor r) (VRepo r) (w_meta w)) as H.
    destruct (mput _ _ true (w_meta w)) as [[|] m]; [exact H|apply extends_refl].
  - (* upload *) destruct (upload_cases r id es E w) as [->|[c ->]];
      [apply extends_refl|apply apply_excl_extends].
  - (* an upload that stops before its descriptor *)
    destruct (put_indexes r id 0 (chunk E es) (w_meta w)) as [m|] eqn:Ep; [|apply extends_refl].
    pose proof (put_indexes_apply _ _ _ _ _ _ [] Ep) as Hm. cbn [apply_excl fst w_meta with_meta] in *.
    rewrite <- Hm. apply apply_excl_extends.
  - (* set-label, delete-label: the meta store is not touched *) unfold set_label. destruct (_ || _); apply extends_refl.
  - unfold delete_label. destruct (_ && _); [apply extends_refl|]. destruct (mdelete _ _) as [[|] v1]; apply extends_refl.
Qed.
