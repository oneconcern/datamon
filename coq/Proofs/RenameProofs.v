(* C09, rename: every committed bundle of the old name is found intact under the new name.  The copy
   of a bundle is the upload program (bundle_writes) of its file lists under the new name. *)
From Coq Require Import List String NArith Arith Lia Permutation.
From DM Require Import Base.Str Gen.Paths Model.Meta Model.RepoOps Model.Atomic Proofs.RepoProofs Proofs.AtomicProofs
  Proofs.DeleteFiles.
Import ListNotations.
Open Scope list_scope.

Section Rename.
Variables r r' : string.
Hypotheses (Hr : noslash r = true) (Hr' : noslash r' = true) (Hne : r <> r').

Lemma copy_indexes_frame : forall n id i m k, under_bundle r' id k = false ->
  mget k (copy_indexes n r r' id i m) = mget k m.
Proof.
  induction n as [|n IH]; intros id i m k Hk; cbn [copy_indexes]; [reflexivity|].
  rewrite IH by exact Hk. destruct (mget (GetArchivePathToBundleFileList r id i) m); [|reflexivity].
  apply mget_mput_other. intros E. rewrite <- E, filelist_under in Hk. discriminate.
Qed.

(* on lists that are stored, with the target lists free, the copy loop is the create-if-absent
   program of those lists *)
Lemma copy_indexes_program : forall ls id i m,
  (forall j, j < List.length ls -> mget (GetArchivePathToBundleFileList r id (i + N.of_nat j)) m = Some (VIndex (nth j ls []))) ->
  (forall j, j < List.length ls -> mget (GetArchivePathToBundleFileList r' id (i + N.of_nat j)) m = None) ->
  copy_indexes (List.length ls) r r' id i m = apply_excl (index_writes r' id i ls) m.
Proof.
  induction ls as [|l ls IH]; intros id i m Hsrc Hdst; [reflexivity|].
  cbn [List.length copy_indexes index_writes apply_excl].
  pose proof (Hsrc 0 (Nat.lt_0_succ _)) as S0. pose proof (Hdst 0 (Nat.lt_0_succ _)) as D0.
  rewrite N.add_0_r in S0, D0. cbn [nth] in S0. rewrite S0, mput_excl. unfold mhas. rewrite D0.
  (* the list just written is neither read nor written again *)
  apply IH; intros j Hj; cbn [mget]; rewrite <- N.add_assoc, N.add_1_l, <- Nat2N.inj_succ;
    apply -> Nat.succ_lt_mono in Hj.
  - rewrite string_eqb_other by (apply not_eq_sym; now apply filelist_other_repo). exact (Hsrc (S j) Hj).
  - rewrite string_eqb_other by (intros E; apply filelist_key_inj in E; lia). exact (Hdst (S j) Hj).
Qed.

(* one bundle of the old repository copied to the new name: the body of the loop over the bundles
   in rename_repo, to which it is convertible *)
Definition copy_bundle (m : mstore) (id : string) : mstore :=
  match mget (GetArchivePathToBundle r id) m with
  | Some (VBundle _ c) =>
      copy_indexes (N.to_nat c) r r' id 0%N (snd (mput (GetArchivePathToBundle r' id) (VBundle id c) true m))
  | _ => m
  end.

Lemma copy_bundle_frame : forall m id k, under_bundle r' id k = false -> mget k (copy_bundle m id) = mget k m.
Proof.
  intros m id k Hk. unfold copy_bundle.
  destruct (mget (GetArchivePathToBundle r id) m) as [[| idb c | | | | |]|]; try reflexivity.
  rewrite copy_indexes_frame by exact Hk.
  apply mget_mput_other. intros E. rewrite <- E, descriptor_under in Hk. discriminate.
Qed.

(* the copy of a stored bundle into a free directory is the upload program of its lists there *)
Lemma copy_bundle_copies : forall m id ls, noslash id = true ->
  stored r id ls m -> (forall k, under_bundle r' id k = true -> mget k m = None) ->
  stored r' id ls (copy_bundle m id).
Proof.
  intros m id ls Hid [Hd Hl] Hfree.
  assert (E : copy_bundle m id =
    apply_excl ((GetArchivePathToBundle r' id, VBundle id (N.of_nat (List.length ls))) :: index_writes r' id 0 ls) m).
  { unfold copy_bundle. rewrite Hd, Nat2N.id. cbn [apply_excl].
    rewrite mput_excl. unfold mhas. rewrite (Hfree _ (descriptor_under r' id)).
    apply copy_indexes_program; intros j Hj; cbn [mget N.add];
      rewrite string_eqb_other by (apply not_eq_sym; now apply filelist_not_descriptor);
      [now apply Hl|apply Hfree, filelist_under]. }
  rewrite E. exact (bundle_written r' id ls _ m (Permutation_cons_append _ _) Hfree).
Qed.

Lemma copy_bundles_copies : forall ids m id ls, NoDup ids -> (forall x, In x ids -> noslash x = true) ->
  In id ids -> stored r id ls m -> (forall k, under_bundle r' id k = true -> mget k m = None) ->
  stored r' id ls (fold_left copy_bundle ids m).
Proof.
  induction ids as [|x ids IH]; intros m id ls Hnd Hns Hin Hst Hfree; [destruct Hin|].
  apply NoDup_cons_iff in Hnd. destruct Hnd as [Hx Hnd]. cbn [fold_left].
  assert (Hidns : noslash id = true) by (apply Hns; exact Hin).
  destruct Hin as [->|Hin].
  - (* copied now; the later copies write under other bundle ids *)
    apply (stored_frame r' id ls (copy_bundle m id)).
    + intros k Hk. apply mget_fold_frame. intros y m' Hy. apply copy_bundle_frame.
      apply (other_bundle_not_under r' y id k); auto.
      * apply Hns. now right.
      * intros ->. contradiction.
    + now apply copy_bundle_copies.
  - (* copied later: this step writes under another id of the new repository only *)
    assert (Hxid : x <> id) by (intros ->; contradiction).
    assert (Hxns : noslash x = true) by (apply Hns; now left).
    apply IH; auto.
    + intros y Hy. apply Hns. now right.
    + apply (stored_frame r id ls m); [|exact Hst]. intros k Hk. apply copy_bundle_frame.
      apply (other_repo_not_under r' r x id k); auto.
    + intros k Hk. rewrite copy_bundle_frame; [now apply Hfree|].
      apply (other_bundle_not_under r' x id k); auto.
Qed.

Theorem rename_moves_bundle : forall w id ls,
  repo_exists r w = true -> repo_exists r' w = false ->
  NoDup (bundles_of r w) -> (forall x, In x (bundles_of r w) -> noslash x = true) -> In id (bundles_of r w) ->
  stored r id ls (w_meta w) -> (forall k, under_bundle r' id k = true -> mget k (w_meta w) = None) ->
  stored r' id ls (w_meta (snd (rename_repo r r' w))).
Proof.
  intros w id ls Hex Hnex Hnd Hns Hin Hst Hfree.
  unfold rename_repo. rewrite Hex, Hnex. cbn [negb orb].
  set (m0 := snd (mput (GetArchivePathToRepoDescriptor r') (VRepo r') true (w_meta w))).
  assert (Hm0 : forall k id0 rr, under_bundle rr id0 k = true -> mget k m0 = mget k (w_meta w)).
  { intros k id0 rr Hk. unfold m0. apply mget_mput_other. intros E. symmetry in E. revert E. eapply under_not_repo_descriptor; eauto. }
  match goal with |- stored _ _ _ (w_meta (snd (delete_repo r ?W))) => set (w1 := W) end.
  apply (stored_frame r' id ls (w_meta w1)).
  - intros k Hk. apply delete_repo_meta_frame.
    + intros id0. apply (other_repo_not_under r r' id0 id k); auto.
    + eapply under_not_repo_descriptor; eauto.
  - unfold w1.
    change (fold_left _ (bundles_of r w) m0) with (fold_left copy_bundle (bundles_of r w) m0).
    apply copy_bundles_copies; auto.
    + apply (stored_frame r id ls (w_meta w)); [|exact Hst]. intros k Hk. eapply Hm0; eauto.
    + intros k Hk. rewrite (Hm0 k id r' Hk). now apply Hfree.
Qed.
End Rename.

(* the premises are met by a concrete repository, and the bundle is found under the new name only *)
Example rename_example :
  let e := fun n => {| e_name := n; e_hash := "h"; e_size := 1%N |} in
  let w0 := {| w_meta := []; w_vmeta := [] |} in
  let w1 := snd (create_repo "r" w0) in
  let w2 := snd (upload "r" "b1" [e "a"; e "b"; e "c"]%string 2 w1) in
  let w := snd (set_label "r" "v1" "b1" w2) in
  let ls := [[e "a"; e "b"]; [e "c"]]%string in
  repo_exists "r" w = true /\ repo_exists "s" w = false /\ bundles_of "r" w = ["b1"%string] /\
  (forall j, j < 2 -> mget (GetArchivePathToBundleFileList "r" "b1" (N.of_nat j)) (w_meta w) = Some (VIndex (nth j ls []))) /\
  mget (GetArchivePathToBundle "r" "b1") (w_meta w) = Some (VBundle "b1" 2) /\
  let w' := snd (rename_repo "r" "s" w) in
  bundles_of "s" w' = ["b1"%string] /\ bundles_of "r" w' = [] /\ repo_exists "r" w' = false /\
  mget (GetArchivePathToBundleFileList "s" "b1" 1) (w_meta w') = Some (VIndex [e "c"]%string) /\
  labels_of "s" EmptyString w' = [("v1", "b1")]%string.
Proof.
  intros e w0 w1 w2 w ls.
  assert (Hl : forall j, j < 2 -> mget (GetArchivePathToBundleFileList "r" "b1" (N.of_nat j)) (w_meta w) = Some (VIndex (nth j ls []))).
  { intros j Hj. destruct j as [|[|j]]; [vm_compute; reflexivity|vm_compute; reflexivity|lia]. }
  (* the rest is closed and evaluated once, with the quantified conjunct put aside as a variable
     ([repeat split] would split the equations too, by unification with eq_refl, which is dear) *)
  revert Hl.
  generalize (forall j, j < 2 -> mget (GetArchivePathToBundleFileList "r" "b1" (N.of_nat j)) (w_meta w) = Some (VIndex (nth j ls []))).
  intros P HP. vm_compute. repeat apply conj; try reflexivity. exact HP.
Qed.
