(* C13 / C14.  The local store of a session is always the keys of the uploaded chunks, marked,
   followed by the pending keys T, unmarked (rep).  Hence the keys a session knows are the indexed
   ones and T, a chunk is firstn n T, and a session that ends has T = []: its index is the set of
   keys it knows.  What is left is how the known keys grow, by induction over a session
   (session_ind). *)
From Coq Require Import List String Bool Lia.
From DM Require Import Base.ListFacts Model.Purge.
Import ListNotations.
Open Scope list_scope.

Lemma mem_In : forall k l, mem k l = true <-> In k l.
Proof. exact (existsb_eqb_In String.eqb String.eqb_eq). Qed.

Lemma keep_blob_iff : forall index k nw, keep_blob index (k, nw) = true <-> In k index \/ nw = true.
Proof. intros. unfold keep_blob. now rewrite orb_true_iff, mem_In. Qed.

Theorem delete_unused_exact : forall index blobs k,
  In k (delete_unused index blobs) <-> exists nw, In (k, nw) blobs /\ (In k index \/ nw = true).
Proof.
  intros index blobs k. unfold delete_unused. rewrite in_map_iff. split.
  - intros [[k' nw] [E H]]. cbn in E. subst k'. apply filter_In in H. rewrite keep_blob_iff in H. now exists nw.
  - intros [nw H]. exists (k, nw). split; [reflexivity|]. apply filter_In. now rewrite keep_blob_iff.
Qed.

Theorem delete_unused_subset : forall index blobs k, In k (delete_unused index blobs) -> In k (map fst blobs).
Proof. intros index blobs k H. apply delete_unused_exact in H. destruct H as [nw [Hin _]]. apply in_map_iff. now exists (k, nw). Qed.

Definition known (st : bstate) (k : string) : Prop := kv_has k (b_kv st) = true.

Lemma kv_has_app : forall k a b, kv_has k (a ++ b) = kv_has k a || kv_has k b.
Proof. intros. apply existsb_app. Qed.

Lemma kv_add_has : forall k k' kv, kv_has k' (kv_add k kv) = true <-> k = k' \/ kv_has k' kv = true.
Proof.
  intros k k' kv. unfold kv_add. destruct (kv_has k kv) eqn:E.
  - split; [now right|]. intros [<-|H]; auto.
  - rewrite kv_has_app, orb_true_iff. unfold kv_has at 2. cbn. rewrite orb_false_r, String.eqb_eq.
    split; intros [H|H]; auto.
Qed.

Lemma fold_add_has : forall ks kv k', kv_has k' (fold_left (fun kv k => kv_add k kv) ks kv) = true <-> In k' ks \/ kv_has k' kv = true.
Proof.
  induction ks as [|k ks IH]; intros kv k'; cbn [fold_left]; [cbn; tauto|].
  rewrite IH, kv_add_has. cbn [In]. tauto.
Qed.

Lemma scan_file_chunks : forall f st, b_chunks (scan_file f st) = b_chunks st.
Proof. intros. unfold scan_file. now destruct (b_trust st && _). Qed.

Lemma scan_file_trust : forall f st, b_trust (scan_file f st) = b_trust st.
Proof. intros. unfold scan_file. now destruct (b_trust st && _). Qed.

(* a file is skipped when its root is known to a session that trusts roots *)
Lemma scan_file_known : forall f st k, known (scan_file f st) k <->
  known st k \/ (b_trust st && kv_has (fk_root f) (b_kv st) = false /\ In k (keys_of f)).
Proof.
  intros. unfold known, scan_file. destruct (b_trust st && _); cbn [b_kv].
  - split; [now left|]. intros [H|[H _]]; [exact H|discriminate].
  - rewrite fold_add_has. tauto.
Qed.

Definition kv_rep (U T : list string) : list (string * bool) :=
  map (fun k => (k, true)) U ++ map (fun k => (k, false)) T.

Definition rep (st : bstate) (T : list string) : Prop := b_kv st = kv_rep (List.concat (b_chunks st)) T.
Definition has_rep (st : bstate) : Prop := exists T, rep st T.

Lemma kv_has_map : forall k b l, kv_has k (map (fun x => (x, b)) l) = mem k l.
Proof. intros. induction l as [|x l IH]; [reflexivity|]. unfold kv_has, mem in *. cbn. now rewrite IH. Qed.

Lemma kv_has_rep : forall k U T, kv_has k (kv_rep U T) = true <-> In k U \/ In k T.
Proof. intros. unfold kv_rep. now rewrite kv_has_app, !kv_has_map, orb_true_iff, !mem_In. Qed.

Lemma known_rep : forall st T k, rep st T -> (known st k <-> In k (List.concat (b_chunks st)) \/ In k T).
Proof. intros st T k H. unfold known. rewrite H. apply kv_has_rep. Qed.

Lemma pending_map : forall b l, pending (map (fun k => (k, b)) l) = if b then 0 else List.length l.
Proof. intros b l. unfold pending. induction l as [|x l IH]; destruct b; cbn in *; congruence. Qed.

Lemma pending_app : forall a b, pending (a ++ b) = pending a + pending b.
Proof. intros. unfold pending. now rewrite filter_app, app_length. Qed.

Lemma pending_rep : forall U T, pending (kv_rep U T) = List.length T.
Proof. intros. unfold kv_rep. now rewrite pending_app, !pending_map. Qed.

Lemma kv_add_rep : forall k U T, exists T', kv_add k (kv_rep U T) = kv_rep U T'.
Proof.
  intros. unfold kv_add. destruct (kv_has _ _); [now exists T|exists (T ++ [k])].
  unfold kv_rep. now rewrite map_app, app_assoc.
Qed.

Lemma fold_add_rep : forall ks U T, exists T', fold_left (fun kv k => kv_add k kv) ks (kv_rep U T) = kv_rep U T'.
Proof.
  induction ks as [|k ks IH]; intros U T; cbn [fold_left]; [now exists T|].
  destruct (kv_add_rep k U T) as [T' ->]. apply IH.
Qed.

Lemma scan_file_rep : forall f st, has_rep st -> has_rep (scan_file f st).
Proof.
  intros f st [T H]. unfold has_rep, rep. unfold scan_file.
  destruct (b_trust st && _); [now exists T|]. rewrite H. apply fold_add_rep.
Qed.

Lemma take_pending_rep : forall U T n,
  take_pending n (kv_rep U T) = (firstn n T, kv_rep (U ++ firstn n T) (skipn n T)).
Proof.
  unfold kv_rep. induction U as [|u U IH]; intros T n; cbn [map app take_pending]; [|now rewrite IH].
  revert n. induction T as [|t T IH]; intros [|n]; cbn [map app take_pending firstn skipn]; try reflexivity.
  now rewrite IH.
Qed.

Lemma flush_rep : forall n st T, rep st T ->
  flush n st = {| b_kv := kv_rep (List.concat (b_chunks st ++ [firstn n T])) (skipn n T);
                  b_chunks := b_chunks st ++ [firstn n T]; b_trust := b_trust st |}.
Proof. intros n st T H. unfold flush. rewrite H, take_pending_rep, concat_app. cbn. now rewrite app_nil_r. Qed.

Lemma flush_skipn_rep : forall n st T, rep st T -> rep (flush n st) (skipn n T).
Proof. intros n st T H. unfold rep. now rewrite (flush_rep n st T H). Qed.

Lemma flush_has_rep : forall n st, has_rep st -> has_rep (flush n st).
Proof. intros n st [T H]. exists (skipn n T). now apply flush_skipn_rep. Qed.

Lemma flush_trust : forall n st, b_trust (flush n st) = b_trust st.
Proof. intros. unfold flush. now destruct (take_pending n (b_kv st)). Qed.

(* a chunk only marks keys: the store holds the keys it held, whatever it is *)
Lemma take_pending_has : forall k kv n, kv_has k (snd (take_pending n kv)) = kv_has k kv.
Proof.
  induction kv as [|[k0 [|]] kv IH]; intros n; cbn [take_pending]; [reflexivity| |destruct n as [|n]; [reflexivity|]];
    specialize (IH n); destruct (take_pending n kv); unfold kv_has in *; cbn in *; now rewrite IH.
Qed.

Lemma flush_known : forall n st k, known (flush n st) k <-> known st k.
Proof.
  intros n st k. unfold known, flush. pose proof (take_pending_has k (b_kv st) n) as E.
  destruct (take_pending n (b_kv st)). cbn in *. now rewrite E.
Qed.

Lemma start_rep : forall resume chunks, rep (start_session resume chunks) [].
Proof. intros [|] chunks; unfold rep, kv_rep; [now rewrite app_nil_r|reflexivity]. Qed.

Definition files_of (ops : list bop) : list file_keys := flat_map (fun o => match o with OScan f => [f] | OFlush => [] end) ops.

Definition session_end (n : nat) (resume : bool) (ops : list bop) (chunks : list (list string)) : bstate :=
  let st := fold_left (apply_bop n) ops (start_session resume chunks) in finish (S (List.length (b_kv st))) n st.

(* what scan_file (of the files in Q) and flush preserve holds at the end of a session; P may speak
   of the files scanned so far *)
Section SessionInd.
  Variables (n : nat) (Q : file_keys -> Prop) (P : list file_keys -> bstate -> Prop).
  Hypothesis Pscan : forall fs f st, Q f -> P fs st -> P (fs ++ [f]) (scan_file f st).
  Hypothesis Pflush : forall fs st, P fs st -> P fs (flush n st).

  Lemma ops_ind : forall ops fs st, (forall f, In f (files_of ops) -> Q f) -> P fs st ->
    P (fs ++ files_of ops) (fold_left (apply_bop n) ops st).
  Proof.
    induction ops as [|[f|] ops IH]; intros fs st HQ H; cbn [fold_left apply_bop].
    - now rewrite app_nil_r.
    - change (files_of (OScan f :: ops)) with ([f] ++ files_of ops) in *. rewrite app_assoc.
      apply IH; [|apply Pscan]; auto using in_or_app, in_eq.
    - apply IH; auto.
  Qed.

  Lemma finish_ind : forall fuel fs st, P fs st -> P fs (finish fuel n st).
  Proof. induction fuel as [|fuel IH]; intros fs st H; cbn [finish]; [exact H|]. destruct (Nat.eqb _ 0); auto. Qed.

  Lemma session_ind : forall resume ops chunks, (forall f, In f (files_of ops) -> Q f) ->
    P [] (start_session resume chunks) -> P (files_of ops) (session_end n resume ops chunks).
  Proof. intros resume ops chunks HQ H0. unfold session_end. apply finish_ind. now apply (ops_ind ops []). Qed.
End SessionInd.

Lemma finish_done : forall fuel n st T, 0 < n -> rep st T -> List.length T < fuel -> rep (finish fuel n st) [].
Proof.
  induction fuel as [|fuel IH]; intros n st T Hn H Hf; [inversion Hf|]. cbn [finish].
  pose proof (flush_skipn_rep n st T H) as R. rewrite H, pending_rep.
  destruct T as [|t T].
  - now rewrite skipn_nil in R.
  - apply (IH n _ _ Hn R). rewrite skipn_length. cbn [List.length] in *. lia.
Qed.

Lemma ops_rep : forall n resume ops chunks, has_rep (fold_left (apply_bop n) ops (start_session resume chunks)).
Proof.
  intros n resume ops chunks.
  apply (ops_ind n (fun _ => True) (fun _ => has_rep) (fun _ f st _ => scan_file_rep f st) (fun _ => flush_has_rep n) ops []).
  - auto.
  - exists []. apply start_rep.
Qed.

Lemma session_rep : forall n resume ops chunks, has_rep (session_end n resume ops chunks).
Proof.
  intros. unfold session_end. apply (finish_ind n (fun _ => has_rep) (fun _ => flush_has_rep n) _ []). apply ops_rep.
Qed.

(* the fuel of last_session, one more than the size of the store, exceeds the number of pending keys *)
Lemma session_done : forall n resume ops chunks, 0 < n -> rep (session_end n resume ops chunks) [].
Proof.
  intros n resume ops chunks Hn. unfold session_end. destruct (ops_rep n resume ops chunks) as [T R].
  apply (finish_done _ n _ T Hn R). apply le_n_S. rewrite R. unfold kv_rep. rewrite app_length, !map_length.
  rewrite PeanoNat.Nat.add_comm. apply PeanoNat.Nat.le_add_r.
Qed.

Lemma index_known : forall n resume ops chunks k,
  (In k (index_of (last_session n resume ops chunks)) -> known (session_end n resume ops chunks) k) /\
  (0 < n -> known (session_end n resume ops chunks) k -> In k (index_of (last_session n resume ops chunks))).
Proof.
  intros n resume ops chunks k. change (last_session n resume ops chunks) with (b_chunks (session_end n resume ops chunks)).
  unfold index_of. split.
  - destruct (session_rep n resume ops chunks) as [T H]. rewrite (known_rep _ T k H). now left.
  - intros Hn. rewrite (known_rep _ [] k (session_done n resume ops chunks Hn)). now intros [H|[]].
Qed.

(* files whose root key stands for its leaves *)
Definition consistent (F : list file_keys) : Prop :=
  forall f g, In f F -> In g F -> In (fk_root f) (keys_of g) -> forall l, In l (fk_leaves f) -> In l (keys_of g).

(* throughout a session over files of F a known root stands for known leaves, and every key of
   the files scanned so far is known *)
Definition complete_inv (F fs : list file_keys) (st : bstate) : Prop :=
  (b_trust st = true -> forall f, In f F -> known st (fk_root f) -> forall l, In l (fk_leaves f) -> known st l) /\
  forall f k, In f fs -> In k (keys_of f) -> known st k.

Lemma scan_complete_inv : forall F, consistent F -> forall fs g st, In g F ->
  complete_inv F fs st -> complete_inv F (fs ++ [g]) (scan_file g st).
Proof.
  intros F HF fs g st Hg [R K]. split.
  - intros Ht f Hf Hr l Hl. rewrite scan_file_trust in Ht. rewrite scan_file_known in *.
    destruct Hr as [Hr|[E Hr]].
    + left. eapply R; eauto.
    + right. split; [exact E|]. eapply HF; eauto.
  - intros f k Hf Hk. apply scan_file_known. apply in_app_or in Hf. destruct Hf as [Hf|[<-|[]]]; [left; eauto|].
    (* the file just scanned: skipped, its root was known and stands for its leaves; or all its keys were added *)
    destruct (b_trust st && _) eqn:E; [left|now right].
    apply andb_prop in E. destruct E as [Et Er]. destruct Hk as [<-|Hk]; [exact Er|]. eapply R; eauto.
Qed.

Lemma flush_complete_inv : forall F n fs st, complete_inv F fs st -> complete_inv F fs (flush n st).
Proof.
  intros F n fs st [R K]. split.
  - intros Ht f Hf Hr l Hl. rewrite flush_trust in Ht. apply flush_known in Hr.
    apply flush_known. eapply R; eauto.
  - intros f k Hf Hk. apply flush_known. eauto.
Qed.

Lemma start_complete_inv : forall F resume chunks, complete_inv F [] (start_session resume chunks).
Proof.
  intros F resume chunks. split; [|intros ? ? []].
  destruct resume; [intros [=]|intros _ f _ [=]].
Qed.

Theorem index_complete : forall F n resume ops chunks f k, 0 < n -> consistent F ->
  (forall g, In g (files_of ops) -> In g F) ->
  In f (files_of ops) -> In k (keys_of f) ->
  In k (index_of (last_session n resume ops chunks)).
Proof.
  intros F n resume ops chunks f k Hn HF Hsub Hf Hk. apply index_known; [exact Hn|].
  eapply (session_ind n (fun g => In g F) (complete_inv F));
    eauto using scan_complete_inv, flush_complete_inv, start_complete_inv.
Qed.

Definition sound_inv (K : string -> Prop) (st : bstate) : Prop := forall k, known st k -> K k.

Lemma session_sound : forall n resume ops chunks,
  sound_inv (fun k => (resume = true /\ In k (List.concat chunks)) \/ exists f, In f (files_of ops) /\ In k (keys_of f))
    (session_end n resume ops chunks).
Proof.
  intros n resume ops chunks.
  apply (session_ind n (fun f => In f (files_of ops)) (fun _ => sound_inv _)); [| |auto|].
  - intros _ f st Hf S k Hk. apply scan_file_known in Hk.
    destruct Hk as [Hk|[_ Hk]]; [auto|right; eauto].
  - intros _ st S k Hk. apply flush_known in Hk. auto.
  - intros k Hk. apply (known_rep _ [] k (start_rep resume chunks)) in Hk.
    destruct resume; destruct Hk as [Hk|[]]; [left; auto|destruct Hk].
Qed.

Theorem index_sound : forall n resume ops chunks k, In k (index_of (last_session n resume ops chunks)) ->
  (resume = true /\ In k (List.concat chunks)) \/ exists f, In f (files_of ops) /\ In k (keys_of f).
Proof. intros n resume ops chunks k H. apply index_known in H. now apply (session_sound n resume ops chunks). Qed.
