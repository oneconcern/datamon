(* C17: the children of a directory are exactly what the paths of the bundle imply, once each; a
   listing resumed at the offsets returned yields every child exactly once; a read returns the bytes
   of its range. *)
From Coq Require Import List String Bool Arith Lia.
From DM Require Import Base.ListFacts Model.Merge Model.Mount Proofs.MergeProofs.
Import ListNotations.
Open Scope list_scope.

(* the names kept are those uniq_strs (Model/Merge.v) keeps *)
Lemma uniq_names_fst : forall l, map fst (uniq_names l) = uniq_strs (map fst l).
Proof.
  induction l as [|x l IH]; cbn [uniq_names uniq_strs map]; [reflexivity|]. f_equal. rewrite <- IH.
  apply (map_filter_comm fst (fun k => negb (String.eqb (fst x) k))).
Qed.

Lemma uniq_names_In : forall l n, (exists b, In (n, b) (uniq_names l)) <-> (exists b, In (n, b) l).
Proof.
  assert (K : forall (l : list (string * bool)) n, In n (map fst l) <-> exists b, In (n, b) l).
  { intros l n. rewrite in_map_iff. split; [intros [[m b] [<- H]]; now exists b|intros [b H]; now exists (n, b)]. }
  intros l n. now rewrite <- !K, uniq_names_fst, uniq_strs_In.
Qed.

Lemma is_prefix_app : forall d p, is_prefix d p = true <-> exists rest, p = d ++ rest.
Proof.
  induction d as [|x d IH]; intros p; cbn [is_prefix].
  - split; [intros _; now exists p|reflexivity].
  - destruct p as [|y p]; [split; [discriminate|intros [r H]; discriminate]|].
    rewrite andb_true_iff, String.eqb_eq, IH. split.
    + intros [-> [r ->]]. now exists r.
    + intros [r H]. inversion H. split; [reflexivity|now exists r].
Qed.

Theorem children_exact : forall d paths n,
  (exists b, In (n, b) (children d paths)) <-> (exists p, In p paths /\ is_prefix (d ++ [n]) p = true).
Proof.
  intros d paths n. unfold children. rewrite uniq_names_In. split.
  - intros [b H]. apply omap_In in H. destruct H as [p [Hp Hc]]. exists p. split; [exact Hp|].
    unfold child_of in Hc. destruct (is_prefix d p) eqn:E; [|discriminate].
    apply is_prefix_app in E. destruct E as [r ->]. rewrite skipn_app_exact in Hc.
    destruct r as [|m r]; [discriminate|]. inversion Hc. apply is_prefix_app. exists r. now rewrite <- app_assoc.
  - intros [p [Hp H]]. apply is_prefix_app in H. destruct H as [r ->]. rewrite <- app_assoc in Hp.
    exists (match r with [] => false | _ => true end). apply omap_In. exists (d ++ n :: r). split; [exact Hp|].
    unfold child_of. assert (E : is_prefix d (d ++ n :: r) = true) by (apply is_prefix_app; eauto).
    now rewrite E, skipn_app_exact.
Qed.

(* a listing read in calls of buffer sizes ks, each resumed at the offset the previous one returned *)
Fixpoint resume {A} (l : list A) (off : nat) (ks : list nat) : list A :=
  match ks with
  | [] => []
  | k :: t => readdir_from l off k ++ resume l (off + Nat.min k (List.length l - off)) t
  end.

Lemma readdir_from_split : forall {A} (l : list A) off k,
  skipn off l = readdir_from l off k ++ skipn (off + Nat.min k (List.length l - off)) l.
Proof.
  intros A l off k. unfold readdir_from. rewrite <- (firstn_skipn k (skipn off l)) at 1. f_equal.
  rewrite skipn_skipn. destruct (Nat.le_ge_cases k (List.length l - off)) as [H|H].
  - rewrite Nat.min_l by exact H. reflexivity.
  - rewrite Nat.min_r by exact H. rewrite !skipn_all2; auto; lia.
Qed.

Theorem resume_complete : forall {A} (l : list A) ks off,
  List.length l - off <= fold_right Nat.add 0 ks -> resume l off ks = skipn off l.
Proof.
  intros A l ks. induction ks as [|k ks IH]; intros off H; cbn [resume fold_right] in *.
  - rewrite skipn_all2; [reflexivity|]. apply Nat.sub_0_le. now apply Nat.le_0_r.
  - rewrite (readdir_from_split l off k). f_equal. apply IH.
    (* what is left after this call, in terms of what was left before it *)
    rewrite Nat.sub_add_distr. revert H. generalize (List.length l - off). intros d H. lia.
Qed.

Theorem read_length : forall data off len, List.length (read_bytes data off len) = Nat.min len (List.length data - off).
Proof. intros. unfold read_bytes. rewrite firstn_length, skipn_length. reflexivity. Qed.
