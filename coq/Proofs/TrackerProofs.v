(* Proofs about Model/Tracker.v: the marker list refines the set of covered offsets. *)
From Coq Require Import List ZArith Bool Lia.
From DM Require Import Base.Util Model.Tracker Model.TrackerCheck.
Import ListNotations.
Open Scope Z_scope.

(* state (inside a written range?) at offset x, given the state before the list *)
Fixpoint cov (m : tracker) (x : Z) (cur : bool) : bool :=
  match m with
  | [] => cur
  | (k, f) :: t => if k <=? x then cov t x f else cur
  end.
Definition covered (m : tracker) (x : Z) : bool := cov m x false.

(* well-formed: keys strictly increasing above lb, flags alternate starting opposite to cur,
   and the list ends outside a range *)
Fixpoint wf (lb : Z) (cur : bool) (m : tracker) : Prop :=
  match m with
  | [] => cur = false
  | (k, f) :: t => lb < k /\ f = negb cur /\ wf k f t
  end.

(* trackWrite as one pass over the list.  prevS is the state just before s: while the walk is
   below s it is the flag of the last marker passed; from s on it is frozen. *)
Fixpoint tw_s (s e : Z) (m : tracker) (prevS : bool) : tracker :=
  match m with
  | [] => (if prevS then [] else [(s, true)]) ++ [(e, false)]
  | (k, f) :: t =>
      if k <? s then (k, f) :: tw_s s e t f
      else if k <=? e then tw_s s e t prevS
      else (if prevS then [] else [(s, true)]) ++ (if f then [(e, false)] else []) ++ (k, f) :: t
  end.

Definition finish (s e : Z) (r : tracker * bool * bool) : tracker :=
  let '(txn, insS, insE) := r in
  let txn := if insS then ins s true txn else txn in
  if insE then ins e false txn else txn.

Lemma ins_lt : forall k f k' f' t, k < k' -> ins k f ((k', f') :: t) = (k, f) :: (k', f') :: t.
Proof. intros k f k' f' t H. cbn [ins]. now rewrite (proj2 (Z.ltb_lt k k') H). Qed.

Lemma ins_gt : forall k f k' f' t, k' < k -> ins k f ((k', f') :: t) = (k', f') :: ins k f t.
Proof.
  intros k f k' f' t H. cbn [ins]. destruct (Z.ltb_spec k k'); [lia|]. destruct (Z.eqb_spec k k'); [lia|]. reflexivity.
Qed.

(* pre holds markers below b, and b is at most the key at hand *)
Lemma ins_app_lt : forall pre b k f rest, Forall (fun p => fst p < b) pre -> b <= k ->
  ins k f (pre ++ rest) = pre ++ ins k f rest.
Proof.
  induction pre as [|[k' f'] pre IH]; intros b k f rest Hp Hb; [reflexivity|]. cbn [app].
  inversion Hp as [|? ? Hk Hp']. cbn [fst] in Hk. rewrite (ins_gt k f k' f') by lia. now rewrite (IH b).
Qed.

Lemma del_app_lt : forall pre b k f rest, Forall (fun p => fst p < b) pre -> b <= k ->
  del k (pre ++ (k, f) :: rest) = pre ++ rest.
Proof.
  induction pre as [|[k' f'] pre IH]; intros b k f rest Hp Hb; cbn.
  - now rewrite Z.eqb_refl.
  - inversion Hp as [|? ? Hk Hp']; cbn in Hk.
    destruct (Z.eqb_spec k k'); [lia|]. now rewrite (IH b).
Qed.

(* tw_walk with the markers below s already passed (pre), all of them still in the transaction:
   its first flag says whether (s, true) is still to be inserted, which is negb prevS *)
Lemma walk_eq : forall m pre prevS s e, s < e ->
  Forall (fun p => fst p < s) pre ->
  finish s e (tw_walk s e m (pre ++ m) (negb prevS) true) = pre ++ tw_s s e m prevS.
Proof.
  induction m as [|[k f] t IH]; intros pre prevS s e Hse Hp.
  - cbn [tw_walk tw_s finish]. destruct prevS; cbn [negb].
    + apply (ins_app_lt pre s); [exact Hp|lia].
    + rewrite (ins_app_lt pre s s), (ins_app_lt pre s e) by (exact Hp || lia).
      change (ins s true []) with [(s, true)]. now rewrite ins_gt.
  - cbn [tw_walk tw_s]. destruct (Z.ltb_spec k s) as [Hks|Hks]; [|destruct (Z.leb_spec k e) as [Hke|Hke]].
    + assert (Hp' : Forall (fun p => fst p < s) (pre ++ [(k, f)])).
      { apply Forall_app; split; [exact Hp|]. constructor; [exact Hks|constructor]. }
      pose proof (IH (pre ++ [(k, f)]) f s e Hse Hp') as E. rewrite <- !app_assoc in E. exact E.
    + rewrite (del_app_lt pre s) by assumption. now apply IH.
    + cbn [finish].
      destruct prevS; cbn [negb].
      * destruct f; [|reflexivity].
        now rewrite (ins_app_lt pre s), ins_lt by (assumption || lia).
      * rewrite (ins_app_lt pre s), ins_lt by (assumption || lia).
        destruct f; [|reflexivity].
        now rewrite (ins_app_lt pre s), ins_gt, ins_lt by (assumption || lia).
Qed.

Lemma track_write_struct : forall off len m, 0 < len ->
  track_write off len m = tw_s off (off + len) m false.
Proof.
  intros off len m Hl. unfold track_write.
  rewrite (proj2 (Z.leb_gt len 0) Hl).
  destruct m as [|p t] eqn:Em.
  - cbn [ins tw_s app]. apply ins_gt. lia.
  - rewrite <- Em. pose proof (walk_eq m [] false off (off + len)) as H.
    cbn [app negb] in H. rewrite <- H; [|lia|constructor].
    unfold finish. destruct (tw_walk off (off + len) m m true true) as [[txn a] b]. reflexivity.
Qed.

Lemma cov_above : forall m x cur lb, wf lb cur m -> x <= lb -> cov m x cur = cur.
Proof.
  destruct m as [|[k f] t]; intros x cur lb Hw Hx; cbn; [reflexivity|].
  destruct Hw as [Hk _]. destruct (k <=? x) eqn:E; [lia|reflexivity].
Qed.

Definition in_range (s e x : Z) : bool := (s <=? x) && (x <? e).

Lemma wf_weaken : forall m lb lb' cur, wf lb cur m -> lb' <= lb -> wf lb' cur m.
Proof. destruct m as [|[k f] t]; [auto|]. intros lb lb' cur [Hk H] Hl. split; [lia|exact H]. Qed.

(* One induction covers the walk below s (lb < s: the state cur of the old list is prevS) and
   the walk from s on (prevS stays, cur moves on). *)
Lemma tw_s_wf_gen : forall m s e prevS cur lb lb',
  wf lb cur m -> s < e -> (lb < s -> cur = prevS) -> lb' < s -> lb' <= lb ->
  wf lb' prevS (tw_s s e m prevS).
Proof.
  induction m as [|[k f] t IH]; intros s e prevS cur lb lb' Hw Hse Hcur Hs Hlb.
  - destruct prevS; cbn; lia.
  - destruct Hw as [Hk [Hf Ht]]. cbn [tw_s].
    destruct (Z.ltb_spec k s) as [Hks|Hks]; [|destruct (Z.leb_spec k e) as [Hke|Hke]].
    + rewrite <- (Hcur ltac:(lia)). repeat split; [lia|exact Hf|].
      apply (IH s e f f k k Ht Hse); [reflexivity|lia|lia].
    + apply (IH s e prevS f k lb' Ht Hse); lia.
    + destruct prevS, f; repeat split; auto; lia.
Qed.

Lemma tw_s_cov_below : forall m s e prevS lb x,
  wf lb prevS m -> s < e -> x < s -> cov (tw_s s e m prevS) x prevS = cov m x prevS.
Proof.
  induction m as [|[k f] t IH]; intros s e prevS lb x Hw Hse Hx.
  - cbn in Hw; subst prevS. cbn. destruct (Z.leb_spec s x); [lia|reflexivity].
  - destruct (Z.ltb_spec k s) as [Hks|Hks].
    + cbn [tw_s]. rewrite (proj2 (Z.ltb_lt k s) Hks). cbn [cov]. destruct (k <=? x); [|reflexivity].
      apply (IH s e f k x); [apply Hw|exact Hse|exact Hx].
    + (* every marker of both lists is at or above s *)
      assert (Hw' : wf (s - 1) prevS ((k, f) :: t)) by (split; [lia|apply Hw]).
      rewrite (cov_above _ x prevS (s - 1) Hw') by lia.
      apply (cov_above _ x prevS (s - 1)); [|lia].
      apply (tw_s_wf_gen _ s e prevS prevS (s - 1)); auto; lia.
Qed.

Lemma tw_s_cov_from : forall m s e prevS cur lb x,
  wf lb cur m -> s < e -> (lb < s -> cur = prevS) -> s <= x ->
  cov (tw_s s e m prevS) x prevS = cov m x cur || (x <? e).
Proof.
  induction m as [|[k f] t IH]; intros s e prevS cur lb x Hw Hse Hcur Hx.
  - cbn in Hw; subst cur. rewrite Z.ltb_antisym.
    destruct prevS; cbn; rewrite ?(proj2 (Z.leb_le s x) Hx); destruct (e <=? x); reflexivity.
  - destruct Hw as [Hk [Hf Ht]]. cbn [tw_s].
    destruct (Z.ltb_spec k s) as [Hks|Hks]; [|destruct (Z.leb_spec k e) as [Hke|Hke]].
    + cbn [cov]. destruct (Z.leb_spec k x); [|lia]. apply (IH s e f f k x Ht Hse); [reflexivity|exact Hx].
    + (* a marker inside [s, e] goes: up to e the new range covers anyway *)
      rewrite (IH s e prevS f k x Ht Hse) by lia. cbn [cov].
      destruct (Z.leb_spec k x); [reflexivity|]. destruct (Z.ltb_spec x e); [|lia]. now rewrite !orb_true_r.
    + (* the first marker beyond e: f says whether the old list is outside a range at e.
         Up to the (s, true) marker, if there is one, the state is prevS; after it, true. *)
      assert (Hpre : forall l, cov ((if prevS then [] else [(s, true)]) ++ l) x prevS = cov l x true).
      { intros l. destruct prevS; [reflexivity|]. cbn [app cov]. now rewrite (proj2 (Z.leb_le s x) Hx). }
      rewrite Hpre, Hf, Z.ltb_antisym. destruct cur; cbn [negb app cov].
      * destruct (Z.leb_spec k x); [|reflexivity]. destruct (Z.leb_spec e x); [|lia]. now rewrite orb_false_r.
      * destruct (Z.leb_spec e x); [now rewrite orb_false_r|].
        destruct (Z.leb_spec k x); [lia|reflexivity].
Qed.

Lemma tw_s_cov : forall m s e prevS lb x,
  wf lb prevS m -> s < e ->
  cov (tw_s s e m prevS) x prevS = cov m x prevS || in_range s e x.
Proof.
  intros m s e prevS lb x Hw Hse. unfold in_range. destruct (Z.leb_spec s x) as [Hx|Hx].
  - now apply (tw_s_cov_from m s e prevS prevS lb).
  - rewrite orb_false_r. now apply (tw_s_cov_below m s e prevS lb).
Qed.

Lemma track_write_nop : forall off len m, len <= 0 -> track_write off len m = m.
Proof. intros. unfold track_write. destruct (len <=? 0) eqn:E; [reflexivity|lia]. Qed.

(* No condition on the offset or the length: a length <= 0 changes nothing and covers nothing. *)
Lemma track_write_spec : forall off len m lb, wf lb false m ->
  wf (Z.min lb (off - 1)) false (track_write off len m) /\
  forall x, covered (track_write off len m) x = covered m x || in_range off (off + len) x.
Proof.
  intros off len m lb Hw. destruct (Z.leb_spec len 0) as [Hl|Hl].
  - rewrite track_write_nop by exact Hl. split; [apply (wf_weaken m lb); [exact Hw|lia]|].
    intros x. unfold in_range. destruct (Z.leb_spec off x), (Z.ltb_spec x (off + len)); try lia; now rewrite orb_false_r.
  - rewrite track_write_struct by exact Hl. split.
    + apply (tw_s_wf_gen m _ _ false false lb); auto; lia.
    + intros x. apply (tw_s_cov m _ _ false lb); [exact Hw|lia].
Qed.

Definition valid_write (w : Z * Z) : Prop := 0 <= fst w /\ 0 <= snd w.

Lemma writes_spec : forall ws m lb, wf lb false m ->
  let m' := fold_left (fun m w => track_write (fst w) (snd w) m) ws m in
  (exists lb', wf lb' false m') /\ forall x, covered m' x = covered m x || covered_by ws x.
Proof.
  induction ws as [|w ws IH]; intros m lb Hw.
  - split; [now exists lb|]. intros x. now rewrite orb_false_r.
  - destruct (track_write_spec (fst w) (snd w) m lb Hw) as [Hw1 Hc1].
    destruct (IH _ _ Hw1) as [Hw2 Hc2]. split; [exact Hw2|].
    intros x. rewrite Hc2, Hc1, <- orb_assoc. reflexivity.
Qed.

Lemma gr_walk_cons : forall off len k f t c st,
  gr_walk off len ((k, f) :: t) c st = if k <=? off then gr_walk off len t c f else (Z.min (k - off) len, negb f).
Proof. intros. destruct f; reflexivity. Qed.

Lemma gr_walk_spec : forall m off len cur lb,
  wf lb cur m -> 0 < len ->
  let '(c, b) := gr_walk off len m len cur in
  b = cov m off cur /\ 0 < c <= len /\
  forall y, off <= y < off + c -> cov m y cur = b.
Proof.
  induction m as [|[k f] t IH]; intros off len cur lb Hw Hl.
  - cbn. repeat apply conj; auto; lia.
  - destruct Hw as [Hk [Hf Ht]]. rewrite gr_walk_cons. cbn [cov].
    destruct (Z.leb_spec k off) as [E|E].
    + specialize (IH off len f k Ht Hl).
      destruct (gr_walk off len t len f) as [c b]. destruct IH as [H1 [H2 H3]].
      split; [exact H1|]. split; [exact H2|]. intros y Hy. rewrite (proj2 (Z.leb_le k y)) by lia. now apply H3.
    + rewrite Hf, negb_involutive. split; [reflexivity|]. split; [lia|].
      intros y Hy. destruct (Z.leb_spec k y); [lia|reflexivity].
Qed.

(* no condition on the writes is needed; the history starts from the empty tracker *)
Theorem get_range_refines : forall ws off len, 0 < len ->
  let '(c, b) := get_range off len (run_writes ws) in
  b = covered_by ws off /\
  0 < c <= len /\
  forall y, off <= y < off + c -> covered_by ws y = covered_by ws off.
Proof.
  intros ws off len Hl. destruct (writes_spec ws [] 0 eq_refl) as [[lb Hwf] Hc].
  pose proof (gr_walk_spec _ off len false lb Hwf Hl) as H.
  unfold get_range, run_writes. destruct (gr_walk off len _ len false) as [c b].
  destruct H as [H1 [H2 H3]]. assert (Hb : b = covered_by ws off) by exact (eq_trans H1 (Hc off)).
  split; [exact Hb|]. split; [exact H2|].
  intros y Hy. rewrite <- Hb, <- (H3 y Hy). symmetry. apply Hc.
Qed.

Lemma probe_ok_iff : forall ws off len c b,
  probe_ok ws off len (c, b) = true <->
  b = covered_by ws off /\ 0 < c <= len /\
  forall y, off <= y < off + c -> covered_by ws y = covered_by ws off.
Proof.
  intros ws off len c b. unfold probe_ok. split.
  - intros H. apply andb_prop in H as [H Hall]. apply andb_prop in H as [H Hle]. apply andb_prop in H as [Hb Hpos].
    apply Z.ltb_lt in Hpos.
    split; [now apply eqb_prop|]. split; [split; [exact Hpos|now apply Z.leb_le]|].
    intros y Hy. apply eqb_prop. apply (proj1 (forallb_forall _ _) Hall). apply in_zseq.
    now rewrite Z2Nat.id by now apply Z.lt_le_incl.
  - intros [Hb [[Hpos Hle] Hall]].
    rewrite Hb, eqb_reflx, (proj2 (Z.ltb_lt _ _) Hpos), (proj2 (Z.leb_le _ _) Hle). apply forallb_forall.
    intros y Hy. apply in_zseq in Hy. rewrite Z2Nat.id in Hy by now apply Z.lt_le_incl.
    rewrite (Hall y Hy). apply eqb_reflx.
Qed.

(* non-vacuity: a concrete history meets the hypotheses and exercises merging *)
Example tracker_example :
  Forall valid_write [(0,1); (1,1); (5,5); (2,5)] /\
  run_writes [(0,1); (1,1); (5,5); (2,5)] = [(0,true); (10,false)] /\
  get_range 0 100 (run_writes [(0,1); (1,1)]) = (2, true).
Proof. repeat constructor; cbn; lia. Qed.
