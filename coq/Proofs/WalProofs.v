(* C19: what one append does to a log kept in token order - which entries it holds afterwards, that
   it stays in order - and a sequence of appends seen from its last one. *)
From Coq Require Import List NArith String Lia Sorted.
From DM Require Import Model.Wal.
Import ListNotations.
Open Scope N_scope.

Definition tok_lt (a b : N * string) : Prop := fst a < fst b.
Definition sorted (l : list (N * string)) : Prop := StronglySorted tok_lt l.

Lemma append_only_adds : forall l t p e, In e (append_entry t p l) -> e = (t, p) \/ In e l.
Proof.
  induction l as [|[t0 q] l IH]; intros t p e H; cbn [append_entry] in H.
  - destruct H as [<-|[]]. now left.
  - destruct (t <? t0); [destruct H as [<-|H]; auto|]. destruct (t =? t0); [now right|].
    destruct H as [<-|H]; [right; now left|]. destruct (IH _ _ _ H); auto. right. now right.
Qed.

Lemma append_keeps : forall l t p e, In e l -> In e (append_entry t p l).
Proof.
  induction l as [|[t0 q] l IH]; intros t p e H; [destruct H|]. cbn [append_entry].
  destruct (t <? t0); [now right|]. destruct (t =? t0); [exact H|].
  destruct H as [<-|H]; [now left|right; now apply IH].
Qed.

Lemma append_new : forall l t p, (forall q, ~ In (t, q) l) -> In (t, p) (append_entry t p l).
Proof.
  induction l as [|[t0 q] l IH]; intros t p H; cbn [append_entry]; [now left|].
  destruct (t <? t0); [now left|]. destruct (t =? t0) eqn:E.
  - apply N.eqb_eq in E. subst. exfalso. apply (H q). now left.
  - right. apply IH. intros q' Hq. apply (H q'). now right.
Qed.

Lemma append_sorted : forall l t p, sorted l -> sorted (append_entry t p l).
Proof.
  induction l as [|[t0 q] l IH]; intros t p H; cbn [append_entry]; [repeat constructor|].
  apply StronglySorted_inv in H. destruct H as [Hs Hall].
  destruct (t <? t0) eqn:E1.
  - apply N.ltb_lt in E1. constructor; [constructor; auto|]. constructor; [exact E1|].
    eapply Forall_impl; [|exact Hall]. intros a Ha. unfold tok_lt in *. cbn [fst] in *. lia.
  - destruct (t =? t0) eqn:E2; [constructor; auto|]. apply N.ltb_ge in E1. apply N.eqb_neq in E2.
    constructor; [now apply IH|]. apply Forall_forall. intros e He. apply append_only_adds in He.
    destruct He as [->|He]; [unfold tok_lt; cbn; lia|]. rewrite Forall_forall in Hall. now apply Hall.
Qed.

Lemma add_all_snoc : forall es e, add_all (es ++ [e]) = append_entry (fst e) (snd e) (add_all es).
Proof. intros. unfold add_all. now rewrite fold_left_app. Qed.

Lemma two128_pos : 0 < two128.
Proof. unfold two128. apply N.neq_0_lt_0. apply N.pow_nonzero. discriminate. Qed.
