(* Proofs about Model/ListOps.v: the paged, filtered key retrieval returns the whole filtered
   listing for every page size; the merge of running / done records: how it splits over an append
   of batches, and what the one or two records of a diamond or split yield. *)
From Coq Require Import List String Bool Sorted.
From DM Require Import Base.StrOrder Base.Paging Model.PathsParse Model.Meta Model.ListOps.
Import ListNotations.
Open Scope list_scope.

(* the retrieval loop is the pager of Base/Paging.v with the filter applied to each page *)
Lemma fetch_keys_pages : forall fuel tok count f l r, all_pages start_seek fuel tok count l = Some r ->
  exists ps, fetch_keys fuel tok count f l = Some ps /\ List.concat ps = filter f r.
Proof.
  induction fuel as [|fu IH]; intros tok count f l r H; [discriminate|].
  cbn [all_pages fetch_keys] in *. destruct (page start_seek tok count l) as [p [t|]].
  - destruct (all_pages start_seek fu (Some t) count l) as [r'|] eqn:E; [|discriminate]. inversion H.
    destruct (IH _ _ f _ _ E) as [ps [-> Hc]]. eexists. split; [reflexivity|]. cbn [List.concat]. now rewrite Hc, filter_app.
  - inversion H. eexists. split; [reflexivity|]. cbn. now rewrite app_nil_r.
Qed.

Theorem fetch_keys_complete : forall l count f, 0 < count -> StronglySorted slt l ->
  exists ps, fetch_keys (S (List.length l)) None count f l = Some ps /\ List.concat ps = filter f l.
Proof.
  intros l count f Hc Hs. apply fetch_keys_pages. apply paging_complete; auto.
  intros. unfold start_seek. now apply drop_lt_suffix.
Qed.

(* the output is only appended to, so what was there can be set aside *)
Lemma merge_step_out : forall st out key,
  merge_step (st, out) key = (fst (merge_step (st, []) key), out ++ snd (merge_step (st, []) key)).
Proof.
  intros st out key. unfold merge_step.
  destruct (get_components key) as [apc|]; [|cbn; now rewrite app_nil_r].
  destruct (String.eqb (c_split apc) EmptyString && String.eqb (c_diamond apc) EmptyString); [cbn; now rewrite app_nil_r|].
  destruct (Nat.ltb 1 _ || _); [reflexivity|now rewrite app_nil_r].
Qed.

Lemma merge_fold_out : forall keys st out,
  fold_left merge_step keys (st, out) =
  (fst (fold_left merge_step keys (st, [])), out ++ snd (fold_left merge_step keys (st, []))).
Proof.
  induction keys as [|k keys IH]; intros st out; cbn [fold_left]; [cbn; now rewrite app_nil_r|].
  rewrite merge_step_out. destruct (merge_step (st, []) k) as [st1 o1] eqn:E1. cbn [fst snd].
  rewrite (IH st1 (out ++ o1)), (IH st1 o1). cbn [fst snd]. now rewrite app_assoc.
Qed.

Lemma merge_batch_app : forall a b st,
  merge_batch st (a ++ b) =
  (fst (merge_batch (fst (merge_batch st a)) b), snd (merge_batch st a) ++ snd (merge_batch (fst (merge_batch st a)) b)).
Proof.
  intros a b st. unfold merge_batch. rewrite fold_left_app.
  destruct (fold_left merge_step a (st, [])) as [st1 o1] eqn:E.
  now rewrite merge_fold_out.
Qed.

(* k is the running (final = false) or done (final = true) record of the diamond or split id *)
Definition is_rec (id : string) (final : bool) (k : string) : Prop :=
  exists apc, get_components k = Some apc /\ (c_diamond apc ++ c_split apc)%string = id /\
              c_final apc = final /\ (String.eqb (c_split apc) EmptyString && String.eqb (c_diamond apc) EmptyString) = false.

Lemma merge_running_only : forall id kr, is_rec id false kr -> merge_batch [] [kr] = ([], [kr]).
Proof.
  intros id kr [apc [Hg [Hid [Hf Hne]]]]. unfold merge_batch. cbn [fold_left]. unfold merge_step.
  rewrite Hg, Hne, Hf. reflexivity.
Qed.

Lemma merge_done_running : forall id kd kr, is_rec id true kd -> is_rec id false kr ->
  merge_batch [] [kd; kr] = ([], [kd]).
Proof.
  intros id kd kr [ad [Hgd [Hidd [Hfd Hned]]]] [ar [Hgr [Hidr [Hfr Hner]]]].
  unfold merge_batch. cbn [fold_left]. unfold merge_step at 2. rewrite Hgd, Hned, Hidd, Hfd. cbn.
  unfold merge_step. rewrite Hgr, Hner, Hidr, Hfr. rewrite String.eqb_refl. reflexivity.
Qed.

(* the keys one diamond or split contributes to a listing, and the one the merge keeps: its running
   record alone, or its done record followed by the running one *)
Inductive group : list string -> string -> Prop :=
| GRunning id kr : is_rec id false kr -> group [kr] kr
| GDone id kd kr : is_rec id true kd -> is_rec id false kr -> group [kd; kr] kd.
