(* C18: the inode generator never hands out a number that is still in use. *)
From Coq Require Import List NArith Bool Lia Permutation.
From DM Require Import Base.ListFacts Model.Inode Model.InodeCheck.
Import ListNotations.
Local Open Scope N_scope.

(* numbers above the base are either live or on the free stack, each exactly once, and nothing else is *)
Definition iinv (base : N) (g : igen) (live : list N) : Prop :=
  base <= ig_hi g /\ NoDup (live ++ ig_free g) /\ forall x, In x (live ++ ig_free g) <-> base < x <= ig_hi g.

Lemma iinv_init : forall base, iinv base {| ig_hi := base; ig_free := [] |} [].
Proof. intros base. split; [cbn; lia|]. split; [constructor|]. intros x. cbn. split; [tauto|lia]. Qed.

(* the invariant looks at live ++ ig_free g only up to order *)
Lemma iinv_perm : forall base g live g' live', ig_hi g' = ig_hi g ->
  Permutation (live ++ ig_free g) (live' ++ ig_free g') -> iinv base g live -> iinv base g' live'.
Proof.
  intros base g live g' live' Hh P [Hb [A B]]. unfold iinv. rewrite Hh. split; [exact Hb|]. split.
  - exact (Permutation_NoDup P A).
  - intros x. rewrite <- B. split; apply Permutation_in; [symmetry|]; exact P.
Qed.

Theorem ialloc_fresh : forall base g live, iinv base g live ->
  ~ In (fst (ialloc g)) live /\ base < fst (ialloc g) /\ iinv base (snd (ialloc g)) (live ++ [fst (ialloc g)]).
Proof.
  intros base g live I. pose proof I as [Hb [A B]]. unfold ialloc. destruct (ig_free g) as [|x t] eqn:Ef; cbn [fst snd].
  - (* nothing to reuse: one above the high-water mark *)
    rewrite app_nil_r in A, B.
    assert (Hn : ~ In (ig_hi g + 1) live) by (intros H; apply B in H; lia).
    split; [exact Hn|]. split; [lia|]. unfold iinv; cbn [ig_hi ig_free]. rewrite app_nil_r. split; [lia|]. split.
    + now apply NoDup_snoc.
    + intros y. rewrite in_app_iff, B. cbn. lia.
  - (* the number last released moves from the free stack to the live list *)
    split; [|split].
    + intros H. apply (NoDup_remove_2 _ _ _ A). apply in_app_iff. now left.
    + apply (B x). apply in_app_iff. right. now left.
    + apply (iinv_perm base g live); [reflexivity| |exact I]. rewrite Ef. now rewrite <- app_assoc.
Qed.

Lemma remove_nth_perm : forall {A} (live : list A) k i, nth_error live k = Some i -> Permutation live (i :: remove_nth k live).
Proof.
  intros A live. induction live as [|x live IH]; intros k i H; [destruct k; discriminate|].
  destruct k as [|k]; cbn in *; [inversion H; reflexivity|].
  rewrite perm_swap. constructor. now apply IH.
Qed.

Theorem irelease_inv : forall base g live k i, iinv base g live -> nth_error live k = Some i ->
  iinv base (irelease i g) (remove_nth k live).
Proof.
  intros base g live k i I Hk.
  (* as if i went onto the free stack ... *)
  assert (I' : iinv base {| ig_hi := ig_hi g; ig_free := i :: ig_free g |} (remove_nth k live)).
  { apply (iinv_perm base g live); [reflexivity| |exact I]. cbn [ig_free]. rewrite <- Permutation_middle.
    apply (Permutation_app_tail _ (remove_nth_perm live k i Hk)). }
  unfold irelease. destruct (N.eqb_spec (ig_hi g) i) as [E|E]; [|exact I'].
  (* ... and if it is the high-water mark, that one is lowered instead *)
  destruct I' as [Hb [A B]]. cbn [ig_hi ig_free] in *. apply NoDup_remove in A. destruct A as [A Hi].
  assert (Hi' : base < i <= ig_hi g) by (apply B, in_app_iff; right; now left).
  unfold iinv. cbn [ig_hi ig_free]. split; [lia|]. split; [exact A|]. intros x. split.
  - intros H. assert (x <> i) by (intros ->; contradiction).
    assert (base < x <= ig_hi g); [|lia]. apply B. apply in_app_iff in H. apply in_app_iff. cbn. tauto.
  - intros H. assert (Hx : In x (remove_nth k live ++ i :: ig_free g)) by (apply B; lia).
    apply in_app_iff in Hx. apply in_app_iff. destruct Hx as [Hx|[Hx|Hx]]; [now left|lia|now right].
Qed.

Theorem istep_inv : forall base g live o, iinv base g live -> iinv base (fst (fst (istep (g, live) o))) (snd (fst (istep (g, live) o))).
Proof.
  intros base g live o H. destruct o as [|k]; cbn [istep].
  - pose proof (ialloc_fresh base g live H) as [_ [_ I]]. destruct (ialloc g) as [n g']. exact I.
  - destruct (nth_error live k) as [i|] eqn:Ek; [|exact H]. eapply irelease_inv; eauto.
Qed.

Theorem ifinal_inv : forall base ops g live, iinv base g live ->
  iinv base (fst (ifinal (g, live) ops)) (snd (ifinal (g, live) ops)).
Proof.
  intros base ops. induction ops as [|o ops IH]; intros g live H; [exact H|].
  cbn [ifinal]. pose proof (istep_inv base g live o H) as H'.
  destruct (fst (istep (g, live) o)) as [g' live']. now apply IH.
Qed.

Lemma on_eqb_refl : forall o, on_eqb o o = true.
Proof. destruct o; [apply N.eqb_refl|reflexivity]. Qed.

Lemma remove_nth_none : forall {A} (l : list A) k, nth_error l k = None -> remove_nth k l = l.
Proof.
  intros A l. induction l as [|x l IH]; intros k Hk; [now destruct k|].
  destruct k as [|k]; cbn in *; [discriminate|]. f_equal. now apply IH.
Qed.

(* the same, in the terms the check uses on the implementation's answers: the model's own answers
   meet the executable reading of the property, for every history *)
Theorem irun_meets_spec : forall base ops g live, iinv base g live ->
  ispec base live ops (irun (g, live) ops) = true.
Proof.
  intros base ops. induction ops as [|o ops IH]; intros g live H; [reflexivity|].
  cbn [irun]. destruct o as [|k]; cbn [istep].
  - pose proof (ialloc_fresh base g live H) as [Hn [Hb I]]. destruct (ialloc g) as [n g'].
    cbn [ispec]. rewrite (IH g' (live ++ [n]) I), andb_true_r.
    apply andb_true_iff. split; [now apply N.ltb_lt|].
    apply negb_true_iff. apply not_true_is_false. intros E. now apply (existsb_eqb_In N.eqb N.eqb_eq) in E.
  - destruct (nth_error live k) as [i|] eqn:Ek; cbn [ispec].
    + rewrite Ek, on_eqb_refl. apply IH. eapply irelease_inv; eauto.
    + rewrite Ek. rewrite (remove_nth_none live k Ek). now apply IH.
Qed.
