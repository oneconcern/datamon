(* Proofs about the metadata path builders (Gen/Paths.v) and parsers (Model/PathsParse.v).
   A metadata path is the "/"-join of slash-free components; the parser splits it into those
   components again (splitn_join) and classifies the list.  Then the metadata names of the
   consumable store, and the reserved locations behind IsGeneratedFile. *)
From Coq Require Import List String Ascii Arith NArith Bool Lia.
From DM Require Import Base.Str Gen.Paths Model.PathsParse Model.PathsCheck.
Import ListNotations.
Open Scope string_scope.

Lemma take_app : forall a b, take (String.length a) (a ++ b) = a.
Proof. induction a as [|c a IH]; intros b; cbn; [now destruct b|]. now rewrite IH. Qed.

Lemma strip_prefix_app : forall p s, strip_prefix p (p ++ s) = Some s.
Proof. intros. unfold strip_prefix. now rewrite starts_with_app, drop_app. Qed.

Lemma strip_suffix_app : forall a suf, strip_suffix suf (a ++ suf) = Some a.
Proof.
  intros. unfold strip_suffix, ends_with. rewrite length_app, Nat.add_sub, drop_app, take_app, String.eqb_refl.
  now rewrite (proj2 (Nat.leb_le _ _) (Nat.le_add_l _ _)).
Qed.

Lemma all_chars_app : forall f a b, all_chars f (a ++ b) = all_chars f a && all_chars f b.
Proof. induction a as [|c a IH]; intros b; cbn; [reflexivity|]. now rewrite IH, andb_assoc. Qed.

Lemma app_inv_tail_s : forall (a b c : string), String.length a = String.length b -> a ++ c = b ++ c -> a = b.
Proof.
  induction a as [|x a IH]; intros b c Hl H; destruct b as [|y b]; try discriminate; [reflexivity|].
  inversion H. f_equal. apply (IH b c); auto.
Qed.

Lemma app_inv_tail_any : forall a b c : string, a ++ c = b ++ c -> a = b.
Proof.
  intros a b c H. apply (app_inv_tail_s a b c); [|exact H].
  apply (f_equal String.length) in H. rewrite !length_app in H. lia.
Qed.

Lemma all_chars_nodash : forall f s, f "-"%char = false -> all_chars f s = true -> nodash s = true.
Proof.
  intros f s Hf. induction s as [|c s IH]; cbn; intros H; [reflexivity|].
  apply andb_prop in H. destruct H as [Hc Hs]. rewrite (IH Hs).
  destruct (Ascii.eqb_spec c "-"); [congruence|reflexivity].
Qed.

Lemma index_file_ok : forall n, index_of_file (bundleFilesIndexPrefix ++ dec n ++ ".yaml") = Some (dec n).
Proof.
  intros n. unfold index_of_file. rewrite strip_prefix_app, strip_suffix_app.
  now rewrite dec_nonempty, dec_digits.
Qed.

Lemma is_index_file_ok : forall n, is_index_file (bundleFilesIndexPrefix ++ dec n ++ ".yaml") = true.
Proof. intros. unfold is_index_file. now rewrite index_file_ok. Qed.

Lemma index_file_noslash : forall n, noslash (bundleFilesIndexPrefix ++ dec n ++ ".yaml") = true.
Proof. intros. rewrite !noslash_app, (all_chars_noslash is_digit (dec n) eq_refl (dec_digits n)). reflexivity. Qed.

Lemma index_file_not_empty : forall n, String.eqb (bundleFilesIndexPrefix ++ dec n ++ ".yaml") "" = false.
Proof. reflexivity. Qed.

Lemma index_name_inj : forall i j, bundleFilesIndexPrefix ++ dec i ++ ".yaml" = bundleFilesIndexPrefix ++ dec j ++ ".yaml" -> i = j.
Proof. intros i j H. now apply app_inv_head_s, app_inv_tail_any, dec_inj in H. Qed.

Lemma ksuid_noslash : forall s, is_ksuid s = true -> noslash s = true.
Proof.
  intros s H. unfold is_ksuid in H. apply andb_prop in H. destruct H as [H _].
  apply andb_prop in H. destruct H as [_ H]. now apply (all_chars_noslash is_base62).
Qed.

Lemma ksuid_neq : forall s x, is_ksuid s = true -> String.length x <> 27 -> String.eqb s x = false.
Proof.
  intros s x H Hx. apply String.eqb_neq. intros ->. unfold is_ksuid in H.
  apply andb_prop in H. destruct H as [H _]. apply andb_prop in H. destruct H as [H _].
  now apply Nat.eqb_eq in H.
Qed.

(* the components of the path of each kind the parser accepts *)
Definition comps_of (k : bkind) : list string :=
  match k with
  | BRepo r => ["repos"; r; repoDescriptorFile]
  | BLabel r l => ["labels"; r; l; labelDescriptorFile]
  | BBundle r b => ["bundles"; r; b; bundleDescriptorFile]
  | BBundleFL r b i => ["bundles"; r; b; bundleFilesIndexPrefix ++ dec i ++ ".yaml"]
  | BDiamond r d f => ["diamonds"; r; d; if f then diamondFinalDescriptorFile else diamondInitialDescriptorFile]
  | BSplit r d s f =>
      ["diamonds"; r; d; "splits"; s; if f then splitFinalDescriptorFile else splitInitialDescriptorFile]
  | BSplitFL r d s g i => ["diamonds"; r; d; "splits"; s; g; bundleFilesIndexPrefix ++ dec i ++ ".yaml"]
  | _ => []
  end.

Lemma build_join : forall k, valid_kind k = true -> build k = join "/" (comps_of k).
Proof.
  intros k H. destruct k; try discriminate H; try reflexivity; try (destruct final; reflexivity).
  cbn [build comps_of]. unfold GetArchivePathToLabel, GetArchivePathPrefixToLabels.
  now rewrite app_nil_r_s, !app_assoc_s.
Qed.

Lemma comps_of_noslash : forall k, valid_kind k = true -> Forall (fun c => noslash c = true) (comps_of k).
Proof.
  intros k H. destruct k; repeat (apply andb_prop in H; destruct H as [H ?]);
    try destruct final; repeat constructor; auto using ksuid_noslash, index_file_noslash.
Qed.

(* 7, where get_components stops splitting, is the length of the longest list of components, that of
   a split's file list *)
Lemma split_build : forall k, valid_kind k = true -> splitn 7 (build k) = comps_of k.
Proof.
  intros k H. rewrite (build_join k H).
  apply splitn_join; [now apply comps_of_noslash| |].
  - destruct k; try discriminate H; discriminate.
  - destruct k; try discriminate H; apply Nat.leb_le; reflexivity.
Qed.

Theorem parse_build_all : forall k, valid_kind k = true -> get_components (build k) = expected_comps k.
Proof.
  intros k H. pose proof (split_build k H) as E.
  (* The [let cs := splitn 7 p] of get_components is kept and the split rewritten there, which leaves
     the parser on a list whose spine and literals are known.  Evaluation (inside reflexivity) takes
     it down to its tests on the variables; what these leave of the parser is written out, and the
     hypotheses decide them.  The parser is unfolded kind by kind: its body is dear to carry
     through the case analysis. *)
  destruct k; try discriminate H.
  1-3: cbv beta delta [get_components]; rewrite E; reflexivity.
  - cbv beta delta [get_components]. rewrite E.
    transitivity (if is_index_file (bundleFilesIndexPrefix ++ dec i ++ ".yaml")
                  then expected_comps (BBundleFL repo b i) else None); [reflexivity|].
    now rewrite is_index_file_ok.
  - apply andb_prop in H as [_ Hd]. cbv beta delta [get_components]. rewrite E.
    transitivity (if negb (is_ksuid d) then None else expected_comps (BDiamond repo d final));
      [destruct final; reflexivity|].
    now rewrite Hd.
  - apply andb_prop in H as [[[_ Hd]%andb_prop _]%andb_prop Hs].
    (* once s is seen not to be empty, the test s =? "" evaluates as well *)
    destruct s as [|c s]; [discriminate Hs|]. cbv beta delta [get_components]. rewrite E.
    transitivity (if negb (is_ksuid d) then None else expected_comps (BSplit repo d (String c s) final));
      [destruct final; reflexivity|].
    now rewrite Hd.
  - apply andb_prop in H as [[[[_ Hd]%andb_prop _]%andb_prop Hs]%andb_prop Hg].
    destruct s as [|c s]; [discriminate Hs|]. cbv beta delta [get_components]. rewrite E.
    (* the generation id is compared with the descriptor names too, and a match has a branch of
       its own: here cbn leaves the tests standing instead.  A ksuid has 27 characters: it is
       none of those names. *)
    cbn -[is_ksuid is_index_file bundleFilesIndexPrefix].
    rewrite Hd, Hg, is_index_file_ok, !(ksuid_neq g) by (exact Hg || (cbn; lia)). reflexivity.
Qed.

Theorem build_injective : forall k1 k2, valid_kind k1 = true -> valid_kind k2 = true ->
  build k1 = build k2 -> expected_comps k1 = expected_comps k2.
Proof.
  intros k1 k2 H1 H2 E. rewrite <- (parse_build_all k1 H1), <- (parse_build_all k2 H2). now rewrite E.
Qed.

(* the kind a parse result stands for, a left inverse of expected_comps: the ids that are present
   tell a split's file list, a split and a diamond apart, the file name the rest *)
Definition index_num (f : string) : N :=
  match index_of_file f with
  | Some ds => match undec ds with Some i => i | None => 0%N end
  | None => 0%N
  end.

Lemma index_num_ok : forall n, index_num (bundleFilesIndexPrefix ++ dec n ++ ".yaml") = n.
Proof. intros n. unfold index_num. now rewrite index_file_ok, undec_dec. Qed.

Definition kind_of (c : comps) : bkind :=
  let r := c_repo c in let d := c_diamond c in let s := c_split c in let f := c_file c in
  let i := index_num f in
  if negb (c_gen c =? "") then BSplitFL r d s (c_gen c) i
  else if negb (s =? "") then BSplit r d s (c_final c)
  else if negb (d =? "") then BDiamond r d (c_final c)
  else if f =? repoDescriptorFile then BRepo r
  else if f =? labelDescriptorFile then BLabel r (c_label c)
  else if f =? bundleDescriptorFile then BBundle r (c_bundle c)
  else BBundleFL r (c_bundle c) i.

Lemma kind_of_expected : forall k, valid_kind k = true -> option_map kind_of (expected_comps k) = Some k.
Proof.
  intros k H. destruct k; try discriminate H; cbn [expected_comps option_map].
  1-3: reflexivity.
  - (* evaluation leaves the index as index_num of the file name *)
    etransitivity; [|apply f_equal, f_equal, index_num_ok]; reflexivity.
  - (* a ksuid is not empty *)
    apply andb_prop in H as [_ Hd]. destruct d; [discriminate Hd|]. reflexivity.
  - apply andb_prop in H as [_ Hs]. destruct s; [discriminate Hs|]. reflexivity.
  - apply andb_prop in H as [_ Hg]. destruct g as [|c g]; [discriminate Hg|].
    etransitivity; [|apply f_equal, f_equal, index_num_ok]; reflexivity.
Qed.

Theorem expected_comps_injective : forall k1 k2, valid_kind k1 = true -> valid_kind k2 = true ->
  expected_comps k1 = expected_comps k2 -> k1 = k2.
Proof.
  intros k1 k2 H1 H2 E. apply (f_equal (option_map kind_of)) in E.
  rewrite !kind_of_expected in E by assumption. now injection E.
Qed.

Theorem build_inj : forall k1 k2, valid_kind k1 = true -> valid_kind k2 = true -> build k1 = build k2 -> k1 = k2.
Proof. intros k1 k2 H1 H2 E. apply expected_comps_injective; auto. now apply build_injective. Qed.

Theorem valid_names_noslash : forall s,
  (repo_name_ok s = true -> noslash s = true) /\ (label_name_ok s = true -> noslash s = true).
Proof.
  intros s. split; intros H; apply andb_prop in H; destruct H as [_ H];
    revert H; apply all_chars_noslash; reflexivity.
Qed.

Lemma dash_index_prefix : "-" ++ bundleFilesIndexPrefix = "-bundle-files-".
Proof. reflexivity. Qed.

Lemma starts_with_dash_false : forall p i, nodash i = true -> nodash p = false -> starts_with p i = false.
Proof.
  induction p as [|a p IH]; intros i Hi Hp; [discriminate|].
  destruct i as [|c i]; [reflexivity|]. cbn in *.
  apply andb_prop in Hi. destruct Hi as [Hc Hi].
  destruct (Ascii.eqb a c) eqn:E; [|reflexivity]. apply Ascii.eqb_eq in E. subst c.
  rewrite Hc in Hp. now apply IH.
Qed.

Lemma split_last_cons_none : forall pat c t,
  split_last pat t = None -> starts_with pat (String c t) = false -> split_last pat (String c t) = None.
Proof. intros pat c t H1 H2. cbn [split_last]. now rewrite H1, H2. Qed.

Lemma split_last_nodash : forall pat s, nodash s = true -> nodash pat = false -> split_last pat s = None.
Proof.
  induction s as [|c s IH]; intros H Hp; [reflexivity|].
  apply split_last_cons_none; [|now apply starts_with_dash_false]. apply andb_prop in H. now apply IH.
Qed.

Lemma split_last_cons_here : forall pat c t,
  split_last pat t = None -> starts_with pat (String c t) = true ->
  split_last pat (String c t) = Some ("", drop (String.length pat) (String c t)).
Proof. intros pat c t H1 H2. cbn [split_last]. now rewrite H1, H2. Qed.

Lemma split_last_app : forall pat b r a i,
  split_last pat r = Some (a, i) -> split_last pat (b ++ r) = Some (b ++ a, i).
Proof. induction b as [|c b IH]; intros r a i H; cbn; [exact H|]. now rewrite (IH r a i H). Qed.

Lemma split_last_built : forall b i, nodash i = true ->
  split_last "-bundle-files-" (b ++ "-bundle-files-" ++ i) = Some (b, i).
Proof.
  intros b i Hi. transitivity (Some (b ++ "", i)); [apply split_last_app|now rewrite app_nil_r_s].
  (* no later occurrence: the pattern has three dashes and what follows has two *)
  assert (Hn : split_last "-bundle-files-" ("bundle-files-" ++ i) = None).
  { repeat (apply split_last_cons_none;
            [|first [reflexivity | exact (starts_with_dash_false "bundle-files-" i Hi eq_refl)]]).
    exact (split_last_nodash "-bundle-files-" i Hi eq_refl). }
  (* the pattern is at the head; what drop leaves of it is i, by evaluation *)
  exact (split_last_cons_here "-bundle-files-" "-" ("bundle-files-" ++ i) Hn (starts_with_app "-bundle-files-" i)).
Qed.

Lemma under_prefix : forall L D p,
  match strip_prefix L p with Some r => under D r | None => false end = under (L ++ D) p.
Proof.
  intros L D p. unfold strip_prefix. destruct (starts_with L p) eqn:E.
  - pose proof (starts_with_drop L p E) as Hp. set (r := drop (String.length L) p) in *.
    rewrite Hp. unfold under. rewrite eqb_app_l, app_assoc_s, starts_with_app_l. reflexivity.
  - unfold under. destruct (String.eqb p (L ++ D)) eqn:E1.
    + apply String.eqb_eq in E1. subst p. now rewrite starts_with_app in E.
    + destruct (starts_with ((L ++ D) ++ "/") p) eqn:E2; [|reflexivity].
      rewrite app_assoc_s in E2. apply starts_with_app_weaken in E2. congruence.
Qed.

Lemma existsb_orb : forall {A} (f g : A -> bool) l, existsb (fun x => f x || g x) l = existsb f l || existsb g l.
Proof.
  induction l as [|x l IH]; cbn; [reflexivity|]. rewrite IH.
  destruct (f x), (g x), (existsb f l); reflexivity.
Qed.

(* below D, possibly behind a leading "./" or "/" *)
Lemma under_strip_lead : forall D p,
  existsb (under D) (strip_lead p) = under D p || under ("/" ++ D) p || under ("./" ++ D) p.
Proof.
  intros D p. unfold strip_lead. rewrite <- !under_prefix.
  destruct (strip_prefix "./" p) as [r1|], (strip_prefix "/" p) as [r2|]; cbn [existsb List.app];
    rewrite ?orb_false_r; try reflexivity.
  now rewrite <- orb_assoc, (orb_comm (under D r1)), orb_assoc.
Qed.

(* stated for any three names: the rewriting is then done on variables, not on literals *)
Lemma reserved_spec_gen : forall D1 D2 D3 p,
  existsb (fun q => under D1 q || under D2 q || under D3 q) (strip_lead p) =
  under D1 p || under ("/" ++ D1) p || under ("./" ++ D1) p
  || under D2 p || under ("/" ++ D2) p || under ("./" ++ D2) p
  || under D3 p || under ("/" ++ D3) p || under ("./" ++ D3) p.
Proof. intros. now rewrite !(existsb_orb _ (under _)), !under_strip_lead, !orb_assoc. Qed.
