(* C12: once a commit is past its collection step the collection is frozen, whatever anybody does;
   so a bundle holds exactly what the commit that wrote it collected. *)
From Coq Require Import List Lia.
From DM Require Import Model.Diamond Proofs.DiamondProofs.
Import ListNotations.
Open Scope list_scope.

Definition past_collect (pc : cpc) : bool :=
  match pc with CWriteLists | CWriteBundle | CWriteDone | CFin => true | _ => false end.

Lemma set_actor_length : forall i a st, i < List.length (d_actors st) -> List.length (d_actors (set_actor i a st)) = List.length (d_actors st).
Proof.
  intros i a st H. unfold set_actor. cbn [d_actors]. rewrite app_length. cbn [List.length].
  rewrite firstn_length_le by lia. rewrite skipn_length. lia.
Qed.

Definition collected (i : nat) (c : list (nat * nat)) (st : dstate) : Prop :=
  exists pc w, nth_error (d_actors st) i = Some (ACommit pc c w) /\ past_collect pc = true.

Lemma collected_event : forall e i c st, collected i c st -> collected i c (apply_event st e).
Proof.
  intros e i c st (pc & w & Ha & Hpc). unfold collected.
  destruct (event_slot e st i) as [E|[-> | ->]]; cbn [apply_event].
  - rewrite E. exists pc, w. auto.
  - (* the commit's own steps keep the collection and stay past the collection step *)
    rewrite step_eq, Ha. destruct pc; try discriminate; cbn [step_of]; try destruct (d_term st); cbn [fst];
      erewrite ?nth_set_actor_same by exact Ha; eauto.
  - unfold crash. rewrite Ha, (nth_set_actor_same _ _ _ _ Ha). exists CFin, w. auto.
Qed.

(* the commit that writes a bundle descriptor is at CWriteBundle, which is past the collection step:
   the descriptor holds its collection then and ever after *)
Lemma bundles_collected_event : forall e st, (forall b srcs, In (b, srcs) (d_bundles st) -> collected b srcs st) ->
  forall b srcs, In (b, srcs) (d_bundles (apply_event st e)) -> collected b srcs (apply_event st e).
Proof.
  intros e st H b srcs Hin. apply collected_event.
  destruct (w_bundles _ _ _ (event_writes e st)) as [E|(i & c & w & _ & Ha & E)]; rewrite E in Hin; [auto|].
  destruct Hin as [Hin|Hin]; [|auto]. injection Hin as <- <-. exists CWriteBundle, w. auto.
Qed.
