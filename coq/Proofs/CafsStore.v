(* The cafs writer, the layout of an object (split_leaves is ListFacts.chunks at the leaf size, so
   the layout facts are its instances), the key of each leaf, collision freedom, and the two
   notions the readers are specified against for the leaves lv of a content c: a store that has
   the leaves (stored) and a store that can only present the honest leaves (faithful); last the
   root blob (chunk_keys, which comes first for a technical reason; holds, presents). *)
From Coq Require Import List NArith Arith Bool Lia.
From DM Require Import Base.ListFacts Model.Cafs.
Import ListNotations.

Lemma bytes_eqb_eq : forall a b, bytes_eqb a b = true <-> a = b.
Proof.
  induction a as [|x a IH]; destruct b as [|y b]; cbn; split; intros H; try discriminate; auto.
  - apply andb_prop in H. destruct H as [H1 H2]. apply N.eqb_eq in H1. apply IH in H2. congruence.
  - inversion H; subst. rewrite N.eqb_refl. now apply IH.
Qed.

Lemma bytes_eqb_refl : forall a, bytes_eqb a a = true.
Proof. intros. now apply bytes_eqb_eq. Qed.

(* chunk_keys is characterised outside the section: inside it `lia` would tie these lemmas to Lpos *)
Lemma chunk_keys_spec : forall fuel b ks, chunk_keys fuel b = Some ks ->
  concat ks = b /\ Forall (fun k => length k = KS) ks.
Proof.
  induction fuel as [|f IH]; intros b ks Hc; cbn [chunk_keys] in Hc.
  - destruct b; [|discriminate]. inversion Hc. auto.
  - destruct b as [|x b'] eqn:E; [inversion Hc; cbn; auto|]. rewrite <- E in *.
    destruct (Nat.ltb_spec (length b) KS) as [Hlt|Hge]; [discriminate|].
    destruct (chunk_keys f (skipn KS b)) as [r|] eqn:Er; [|discriminate].
    assert (Hk : ks = firstn KS b :: r) by congruence. subst ks.
    destruct (IH _ _ Er) as [A B]. split.
    + cbn [concat]. rewrite A. apply firstn_skipn.
    + constructor; auto. now apply firstn_length_le.
Qed.

Lemma chunk_keys_complete : forall ks fuel, Forall (fun k => length k = KS) ks -> length (concat ks) <= fuel ->
  chunk_keys fuel (concat ks) = Some ks.
Proof.
  induction ks as [|k ks IH]; intros fuel F Hf.
  - destruct fuel; reflexivity.
  - apply Forall_cons_iff in F. destruct F as [Fk F]. cbn [concat] in *. rewrite app_length, Fk in Hf.
    destruct fuel; [unfold KS in Hf; lia|].
    cbn [chunk_keys]. destruct (k ++ concat ks) eqn:E.
    { destruct k; [discriminate Fk|discriminate E]. }
    rewrite <- E, app_length, Fk, (proj2 (Nat.ltb_ge _ _) (Nat.le_add_r _ _)), <- Fk.
    rewrite skipn_app_exact, IH, firstn_app, firstn_all, Nat.sub_diag by (auto; unfold KS in Hf; lia).
    now rewrite app_nil_r.
Qed.

(* chunk_keys undoes concat on key lists, so concat is injective on them *)
Lemma concat_inj_len : forall (a b : list (list N)),
  Forall (fun k => length k = KS) a -> Forall (fun k => length k = KS) b ->
  concat a = concat b -> a = b.
Proof.
  intros a b Fa Fb E.
  pose proof (chunk_keys_complete a _ Fa (Nat.le_refl _)) as Ha.
  pose proof (chunk_keys_complete b _ Fb (Nat.le_refl _)) as Hb.
  congruence.
Qed.

Section Layout.
Variable H : N -> N -> N -> bool -> list N -> list N.
Variable L : nat.
Hypothesis Lpos : 0 < L.

Definition wcontent (s : wst) : list N := concat (w_leaves s) ++ w_buf s.
Definition winv (s : wst) : Prop := length (w_buf s) < L /\ Forall (fun l => length l = L) (w_leaves s).

Lemma write_loop_spec : forall fuel s p, length p < fuel -> winv s ->
  exists s', write_loop L fuel s p = Ok s' /\ wcontent s' = wcontent s ++ p /\ winv s'.
Proof.
  induction fuel as [|f IH]; intros s p Hf Hi; [lia|].
  cbn [write_loop]. destruct p as [|a p'] eqn:Ep.
  - exists s. rewrite app_nil_r. auto.
  - rewrite <- Ep in *. destruct Hi as [Hb Hl].
    set (writable := Nat.min (L - length (w_buf s)) (length p)).
    assert (Hw0 : 0 < writable) by (apply Nat.min_glb_lt; [lia|subst p; cbn; lia]).
    assert (Hwb : length (w_buf s) + writable <= L) by (pose proof (Nat.le_min_l (L - length (w_buf s)) (length p)); lia).
    assert (Hwp : writable <= length p) by apply Nat.le_min_r.
    clearbody writable. pose proof (firstn_length_le p Hwp) as Hfl.
    (* flushed or not, the writer goes on with the first writable bytes taken in *)
    assert (Hgo : forall s1, wcontent s1 = wcontent s ++ firstn writable p -> winv s1 ->
              exists s', write_loop L f s1 (skipn writable p) = Ok s' /\ wcontent s' = wcontent s ++ p /\ winv s').
    { intros s1 Hc Hi1. destruct (IH s1 (skipn writable p)) as (s' & H1 & H2 & H3); [rewrite skipn_length; lia|exact Hi1|].
      exists s'. split; [exact H1|]. split; [|exact H3]. now rewrite H2, Hc, <- app_assoc, firstn_skipn. }
    destruct (Nat.eqb_spec (length (w_buf s ++ firstn writable p)) L) as [He|Hne]; apply Hgo; unfold wcontent, winv; cbn.
    + rewrite concat_app. cbn [concat]. now rewrite !app_nil_r, app_assoc.
    + split; [lia|]. apply Forall_app; split; auto.
    + apply app_assoc.
    + split; [|exact Hl]. rewrite app_length, Hfl in *. lia.
Qed.

Lemma write_spec : forall s p, winv s ->
  exists s', write L s p = Ok s' /\ wcontent s' = wcontent s ++ p /\ winv s'.
Proof. intros. unfold write. apply write_loop_spec; auto. Qed.

Lemma write_all_spec : forall chunks s, winv s ->
  exists s', write_all L s chunks = Ok s' /\ wcontent s' = wcontent s ++ concat chunks /\ winv s'.
Proof.
  induction chunks as [|p t IH]; intros s Hi; cbn [write_all concat].
  - exists s. rewrite app_nil_r. auto.
  - destruct (write_spec s p Hi) as [s1 [H1 [H2 H3]]]. rewrite H1.
    destruct (IH s1 H3) as [s2 [H4 [H5 H6]]]. exists s2. split; [exact H4|]. split; [|exact H6].
    rewrite H5, H2. now rewrite app_assoc.
Qed.

Lemma write_all_empty : forall chunks, exists w,
  write_all L {| w_leaves := []; w_buf := [] |} chunks = Ok w /\
  concat (w_leaves w) ++ w_buf w = concat chunks /\
  Forall (fun l => length l = L) (w_leaves w) /\ length (w_buf w) < L.
Proof.
  intros chunks. destruct (write_all_spec chunks {| w_leaves := []; w_buf := [] |}) as (w & H1 & H2 & H3 & H4).
  { split; cbn; [lia|constructor]. }
  exists w. auto.
Qed.

Lemma split_leaves_concat : forall c, concat (split_leaves L c) = c.
Proof. exact (chunks_concat L Lpos). Qed.

(* what the writer leaves behind is the layout of the content *)
Lemma split_leaves_spec : forall ls b,
  Forall (fun l => length l = L) ls -> length b < L ->
  split_leaves L (concat ls ++ b) = ls ++ (match b with [] => [] | _ => [b] end).
Proof.
  intros ls b Hl Hb. change (split_leaves L) with (chunks (A:=N) L).
  now rewrite (chunks_concat_prefix L Lpos _ _ Hl), (chunks_short L Lpos b) by lia.
Qed.

Lemma full_keys_of_leaves : forall ls i, Forall (fun l => length l = L) ls ->
  full_keys H L i ls = keys_of_leaves H L i ls.
Proof.
  induction ls as [|l ls IH]; intros i Hl; cbn; [reflexivity|].
  apply Forall_cons_iff in Hl. destruct Hl as [Hll Hls]. rewrite Hll, Nat.eqb_refl. now rewrite IH.
Qed.

Lemma keys_of_leaves_app : forall a b i,
  keys_of_leaves H L i (a ++ b) = keys_of_leaves H L i a ++ keys_of_leaves H L (i + length a) b.
Proof.
  induction a as [|x a IH]; intros b i; cbn.
  - now rewrite Nat.add_0_r.
  - now rewrite IH, Nat.add_succ_r.
Qed.

Lemma leaf_keys_of_leaves : forall ls b,
  Forall (fun l => length l = L) ls -> length b < L ->
  leaf_keys H L ls b = keys_of_leaves H L 0 (split_leaves L (concat ls ++ b)).
Proof.
  intros ls b Hl Hb. rewrite split_leaves_spec by auto. unfold leaf_keys.
  rewrite keys_of_leaves_app, full_keys_of_leaves by auto. f_equal.
  destruct b as [|x b']; [reflexivity|]. cbn [keys_of_leaves Nat.add].
  destruct (Nat.eqb_spec (length (x :: b')) L) as [E|E]; [lia|reflexivity].
Qed.

(* honest key of leaf d at index i *)
Definition hkey (i : nat) (d : list N) : list N :=
  if Nat.eqb (length d) L then full_key H L i d else part_key H L i d.

Lemma keys_of_leaves_cons : forall i d lv,
  keys_of_leaves H L i (d :: lv) = hkey i d :: keys_of_leaves H L (S i) lv.
Proof. reflexivity. Qed.

Lemma keys_length : forall lv i, length (keys_of_leaves H L i lv) = length lv.
Proof. induction lv as [|d lv IH]; intros i; cbn; [reflexivity|]. now rewrite IH. Qed.

Lemma nth_error_keys : forall lv j i,
  nth_error (keys_of_leaves H L j lv) i = option_map (hkey (j + i)) (nth_error lv i).
Proof.
  induction lv as [|d lv IH]; intros j i; [now destruct i|]. rewrite keys_of_leaves_cons.
  destruct i; cbn [nth_error option_map]; [now rewrite Nat.add_0_r|]. now rewrite IH, Nat.add_succ_r.
Qed.

Lemma keys_skipn : forall lv j i,
  skipn i (keys_of_leaves H L j lv) = keys_of_leaves H L (j + i) (skipn i lv).
Proof.
  induction lv as [|x lv IH]; intros j [|i]; cbn [skipn keys_of_leaves]; rewrite ?Nat.add_0_r; try reflexivity.
  now rewrite IH, Nat.add_succ_r.
Qed.

(* The hash inputs an honest writer feeds for the leaves lv: one per leaf, with the writer's
   parameter convention, and the root over the leaf keys. *)
Definition honest_in (lv : list (list N)) (o d : N) (b : bool) (x : list N) : Prop :=
  (d = 1%N /\ o = 0%N /\ b = true /\ x = concat (keys_of_leaves H L 0 lv)) \/
  (d = 0%N /\ exists i, nth_error lv i = Some x /\
      ((length x = L /\ o = N.of_nat (S i) /\ b = false) \/ (length x <> L /\ o = N.of_nat i /\ b = true))).

(* Collision freedom as the theorems need it: no input whatsoever collides with one of the honest
   inputs of the object (jointly in tree parameters and data).  Unlike global injectivity this
   is satisfiable by functions with 64-byte digests. *)
Definition nocoll (lv : list (list N)) : Prop :=
  forall o d b x o' d' b' x', honest_in lv o d b x ->
    H (LN L) o d b x = H (LN L) o' d' b' x' -> o = o' /\ d = d' /\ b = b' /\ x = x'.

Lemma honest_leaf_in : forall lv i d, nth_error lv i = Some d ->
  honest_in lv (if Nat.eqb (length d) L then N.of_nat (S i) else N.of_nat i) 0%N
            (negb (Nat.eqb (length d) L)) d.
Proof.
  intros lv i d Hn. right. split; [reflexivity|]. exists i. split; [exact Hn|].
  destruct (Nat.eqb_spec (length d) L); [left|right]; auto.
Qed.

Lemma hkey_as_H : forall i d,
  hkey i d = H (LN L) (if Nat.eqb (length d) L then N.of_nat (S i) else N.of_nat i) 0%N
               (negb (Nat.eqb (length d) L)) d.
Proof. intros. unfold hkey, full_key, part_key. destruct (Nat.eqb (length d) L); reflexivity. Qed.

Section Object.
Variable s : bstore.
Variable c : list N.
Variable lv : list (list N).
Hypothesis Hlv : split_leaves L c = lv.

Lemma leaves_from : forall i, concat (skipn i lv) = skipn (i * L) c.
Proof. intros i. rewrite <- Hlv. exact (chunks_from L Lpos i c). Qed.

Lemma leaves_concat : concat lv = c.
Proof. exact (leaves_from 0). Qed.

(* all that the layout says about one leaf: only the last one may be short *)
Lemma leaf_length : forall i d, nth_error lv i = Some d ->
  0 < length d <= L /\ (length d <> L -> S i = length lv).
Proof. rewrite <- Hlv. exact (chunks_nth L Lpos c). Qed.

Lemma content_length : length c <= length lv * L.
Proof.
  pose proof (f_equal (@length _) (leaves_from (length lv))) as E.
  rewrite skipn_all, skipn_length in E. cbn in E. lia.
Qed.

Lemma leaf_byte : forall i d j, nth_error lv i = Some d -> j < L ->
  nth_error c (i * L + j) = nth_error d j.
Proof.
  intros i d j Hd Hj. rewrite <- nth_error_skipn, <- leaves_from, (skipn_nth_error _ i d Hd). cbn [concat].
  destruct (le_lt_dec (length d) j) as [Hge|Hlt]; [|now apply nth_error_app1].
  (* past the end of a short leaf: it is the last one *)
  destruct (leaf_length i d Hd) as [_ Hlast].
  rewrite (skipn_all2 (n:=S i)) by (rewrite (Hlast ltac:(lia)); lia). cbn [concat]. now rewrite app_nil_r.
Qed.

Definition stored : Prop :=
  forall i d, nth_error lv i = Some d -> lookup (hkey i d) s = Some d.

(* whatever the store has: a blob that is accepted for the key of a leaf is that leaf.  The readers
   are specified against a faithful store: Ok means the right bytes, Err means that a leaf is not
   stored. *)
Definition faithful : Prop :=
  forall i d d', nth_error lv i = Some d -> lookup (hkey i d) s = Some d' ->
    verify_leaf H L (length lv) i (hkey i d) d' = true -> d' = d.

Lemma nocoll_faithful : nocoll lv -> faithful.
Proof.
  intros Hnc i d d' Hd _ Hv. unfold verify_leaf in Hv. rewrite hkey_as_H in Hv.
  destruct (Nat.eqb (S i) (length lv) && negb (Nat.eqb (length d') L));
    apply bytes_eqb_eq in Hv; unfold full_key, part_key in Hv;
    apply (Hnc _ _ _ _ _ _ _ _ (honest_leaf_in lv i d Hd)) in Hv; symmetry; apply Hv.
Qed.

Lemma stored_faithful : stored -> faithful.
Proof. intros Hst i d d' Hd Hl _. rewrite (Hst i d Hd) in Hl. now inversion Hl. Qed.

Lemma leaf_accepted : forall i d, nth_error lv i = Some d ->
  verify_leaf H L (length lv) i (hkey i d) d = true.
Proof.
  intros i d Hd. destruct (leaf_length i d Hd) as [_ Hlast].
  unfold verify_leaf, hkey. destruct (Nat.eqb_spec (length d) L) as [Ed|Ed]; cbn [negb].
  - rewrite andb_false_r. apply bytes_eqb_refl.
  - rewrite (proj2 (Nat.eqb_eq _ _) (Hlast Ed)). apply bytes_eqb_refl.
Qed.

(* the fetch step of ReadAt and WriteTo *)
Lemma fetch_cases : faithful -> forall i d, nth_error lv i = Some d ->
  (lookup (hkey i d) s = Some d /\ verify_leaf H L (length lv) i (hkey i d) d = true) \/
  (~ stored /\ forall d', lookup (hkey i d) s = Some d' ->
                 verify_leaf H L (length lv) i (hkey i d) d' = false).
Proof.
  intros Hf i d Hd. destruct (lookup (hkey i d) s) as [d'|] eqn:El.
  - destruct (verify_leaf H L (length lv) i (hkey i d) d') eqn:Ev.
    + left. pose proof (Hf i d d' Hd El Ev) as E. subst d'. auto.
    + right. split.
      * intros Hst. rewrite (Hst i d Hd) in El. inversion El; subst d'.
        rewrite (leaf_accepted i d Hd) in Ev. discriminate.
      * intros d0 E0. inversion E0; subst d0. exact Ev.
  - right. split; [|discriminate]. intros Hst. rewrite (Hst i d Hd) in El. discriminate.
Qed.

End Object.

Hypothesis H_len : forall l o d b x, length (H l o d b x) = KS.

Lemma hkeys_len : forall lv i, Forall (fun k => length k = KS) (keys_of_leaves H L i lv).
Proof.
  induction lv as [|d lv IH]; intros i; cbn; constructor; auto.
  destruct (Nat.eqb (length d) L); apply H_len.
Qed.

(* a root is the hash of one key list only *)
Lemma root_of_inj : forall lv ks, nocoll lv -> Forall (fun k => length k = KS) ks ->
  root_of H L (keys_of_leaves H L 0 lv) = root_of H L ks -> ks = keys_of_leaves H L 0 lv.
Proof.
  intros lv ks Hnc Fk E. unfold root_of in E.
  apply (Hnc 0%N 1%N true) in E; [|left; auto]. destruct E as (_ & _ & _ & E).
  symmetry. apply concat_inj_len; auto. apply hkeys_len.
Qed.

Lemma leaves_for_hash_sound : forall s c ks, nocoll (split_leaves L c) ->
  leaves_for_hash H L (tree_key H L c) s = Some ks -> ks = keys_of_leaves H L 0 (split_leaves L c).
Proof.
  intros s c ks Hnc Hl. unfold leaves_for_hash in Hl.
  destruct (lookup (tree_key H L c) s) as [b|]; [|discriminate].
  destruct (Nat.ltb (length b) KS); [discriminate|].
  destruct (chunk_keys _ _) as [ks'|] eqn:Ec; [|discriminate].
  destruct (bytes_eqb (root_of H L ks') _ && _) eqn:Eb; [|discriminate].
  inversion Hl; subst ks'. apply andb_prop in Eb. destruct Eb as [E1 E2].
  apply bytes_eqb_eq in E1. apply bytes_eqb_eq in E2.
  apply (root_of_inj _ _ Hnc); [apply chunk_keys_spec in Ec; tauto|]. unfold tree_key in *. congruence.
Qed.

(* a store holds an object when its root blob and leaf blobs are there *)
Definition holds (s : bstore) (c : list N) : Prop :=
  let lv := split_leaves L c in let kv := keys_of_leaves H L 0 lv in
  lookup (root_of H L kv) s = Some (concat kv ++ root_of H L kv) /\
  Forall2 (fun k d => lookup k s = Some d) kv lv.

Lemma leaves_for_hash_complete : forall s c, holds s c ->
  leaves_for_hash H L (tree_key H L c) s = Some (keys_of_leaves H L 0 (split_leaves L c)).
Proof.
  intros s c [Hr _]. unfold leaves_for_hash, tree_key.
  set (kv := keys_of_leaves H L 0 (split_leaves L c)) in *. rewrite Hr.
  rewrite app_length, (H_len _ _ _ _ _ : length (root_of H L kv) = KS).
  rewrite (proj2 (Nat.ltb_ge _ _) (Nat.le_add_l _ _)), Nat.add_sub.
  rewrite firstn_app, firstn_all, Nat.sub_diag, skipn_app_exact. cbn [firstn]. rewrite app_nil_r.
  rewrite chunk_keys_complete; [now rewrite !bytes_eqb_refl|apply hkeys_len|apply Nat.le_refl].
Qed.

Lemma holds_stored : forall s c, holds s c -> stored s (split_leaves L c).
Proof.
  intros s c [_ HF] i d Hd. apply (Forall2_nth_error _ _ _ HF i); [|exact Hd].
  now rewrite nth_error_keys, Hd.
Qed.

(* the root blob under the same notion as the leaves: whatever s holds, a key list and leaves that
   are accepted for the key of c are the honest ones *)
Definition presents (s : bstore) (c : list N) : Prop :=
  (forall ks, leaves_for_hash H L (tree_key H L c) s = Some ks ->
              ks = keys_of_leaves H L 0 (split_leaves L c)) /\
  faithful s (split_leaves L c).

Lemma nocoll_presents : forall s c, nocoll (split_leaves L c) -> presents s c.
Proof.
  intros s c Hnc. split.
  - intros ks. now apply leaves_for_hash_sound.
  - now apply nocoll_faithful.
Qed.

Lemma holds_presents : forall s c, holds s c -> presents s c.
Proof.
  intros s c Hh. split.
  - intros ks. rewrite (leaves_for_hash_complete s c Hh). congruence.
  - now apply stored_faithful, holds_stored.
Qed.

End Layout.
