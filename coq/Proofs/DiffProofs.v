(* Proofs about Model/Diff.v: the diff is exact and updating reproduces the target.  An item of the
   diff sets its own path to what the target holds, whatever the directory held, and leaves the
   other paths alone; a path that is not in the diff is the same on both sides. *)
From Coq Require Import List String.
From DM Require Import Base.ListFacts Model.Meta Model.Diff.
Open Scope list_scope.

(* find_entry is ListFacts.kfind at e_name *)
Lemma find_entry_some : forall n es e, find_entry n es = Some e -> In e es /\ e_name e = n.
Proof. exact (kfind_some String.eqb e_name String.eqb_eq). Qed.

Lemma find_entry_none : forall n es, find_entry n es = None <-> ~ In n (map e_name es).
Proof. exact (kfind_none String.eqb e_name String.eqb_eq). Qed.

Lemma find_entry_self : forall es e, NoDup (map e_name es) -> In e es -> find_entry (e_name e) es = Some e.
Proof. exact (kfind_self String.eqb e_name String.eqb_eq). Qed.

(* what the diff must contain *)
Definition in_spec (a b : list entry) (x : dkind * string) : Prop :=
  match fst x with
  | DAdd => In (snd x) (map e_name b) /\ ~ In (snd x) (map e_name a)
  | DDel => In (snd x) (map e_name a) /\ ~ In (snd x) (map e_name b)
  | DDif => exists ea eb, In ea a /\ In eb b /\ e_name ea = snd x /\ e_name eb = snd x /\ e_hash ea <> e_hash eb
  end.

(* distinct paths are needed on the side of b only *)
Theorem diff_exact_b : forall a b x, NoDup (map e_name b) -> In x (diff a b) <-> in_spec a b x.
Proof.
  intros a b [k n] Hb. unfold in_spec. cbn [fst snd]. split.
  - intros H. apply in_app_or in H. destruct H as [H|H]; apply in_flat_map in H; destruct H as [e [Hin Hx]].
    + destruct (find_entry (e_name e) b) as [e'|] eqn:Ef.
      * destruct (String.eqb (e_hash e) (e_hash e')) eqn:Eh; [destruct Hx|].
        destruct Hx as [Hx|[]]. injection Hx as <- <-. apply String.eqb_neq in Eh.
        destruct (find_entry_some _ _ _ Ef) as [Hb' Hn]. exists e, e'. auto.
      * destruct Hx as [Hx|[]]. injection Hx as <- <-. split; [now apply in_map|now apply find_entry_none].
    + destruct (find_entry (e_name e) a) eqn:Ef; [destruct Hx|].
      destruct Hx as [Hx|[]]. injection Hx as <- <-. split; [now apply in_map|now apply find_entry_none].
  - intros H. apply in_or_app. destruct k; [right|left|left]; apply in_flat_map.
    + destruct H as [Hin Hnot]. apply in_map_iff in Hin. destruct Hin as [e [<- He]].
      exists e. split; [exact He|]. apply find_entry_none in Hnot. rewrite Hnot. now left.
    + destruct H as [Hin Hnot]. apply in_map_iff in Hin. destruct Hin as [e [<- He]].
      exists e. split; [exact He|]. apply find_entry_none in Hnot. rewrite Hnot. now left.
    + destruct H as [ea [eb [Hia [Hib [Hna [Hnb Hh]]]]]]. exists ea. split; [exact Hia|].
      rewrite Hna, <- Hnb, (find_entry_self b eb Hb Hib).
      destruct (String.eqb (e_hash ea) (e_hash eb)) eqn:E; [apply String.eqb_eq in E; contradiction|].
      now left.
Qed.

(* each entry of a, and each entry of b, yields at most one item, under its own name; the names of
   the first half are names of a, those of the second are not *)
Theorem diff_names_nodup : forall a b, NoDup (map e_name a) -> NoDup (map e_name b) ->
  NoDup (map snd (diff a b)).
Proof.
  intros a b Ha Hb. unfold diff. rewrite map_app. apply NoDup_app_iff. split; [|split].
  - apply (NoDup_map_flat_map e_name); [|exact Ha]. intros e.
    destruct (find_entry (e_name e) b); [destruct (String.eqb _ _)|]; auto.
  - apply (NoDup_map_flat_map e_name); [|exact Hb]. intros e. destruct (find_entry (e_name e) a); auto.
  - intros n H1 H2. apply in_map_iff in H1, H2. destruct H1 as [[k1 n1] [E1 H1]], H2 as [[k2 n2] [E2 H2]].
    cbn in E1, E2. subst n1 n2. apply in_flat_map in H1, H2. destruct H1 as [e1 [He1 H1]], H2 as [e2 [He2 H2]].
    destruct (find_entry (e_name e2) a) eqn:E; [destruct H2|]. destruct H2 as [[= _ <-]|[]].
    apply find_entry_none in E. apply E.
    destruct (find_entry (e_name e1) b); [destruct (String.eqb _ _); [destruct H1|]|];
      destruct H1 as [[= _ <-]|[]]; now apply in_map.
Qed.

(* dget / dremove are ListFacts.aget / aremove at strings *)
Lemma dget_dremove : forall m n d, dget n (dremove m d) = if String.eqb n m then None else dget n d.
Proof. exact (aget_aremove String.eqb String.eqb_eq). Qed.

Lemma dget_dir_of : forall n es, dget n (dir_of es) = option_map e_hash (find_entry n es).
Proof. induction es as [|e es IH]; cbn; [reflexivity|]. destruct (String.eqb n (e_name e)); [reflexivity|exact IH]. Qed.

Lemma dget_apply_one : forall b d x n, dget n (apply_one b d x) =
  if String.eqb n (snd x) then
    match fst x, find_entry (snd x) b with DDel, _ => None | _, Some e => Some (e_hash e) | _, None => dget n d end
  else dget n d.
Proof.
  intros b d [k m] n. unfold apply_one. cbn [fst snd].
  destruct k; [destruct (find_entry m b)| |destruct (find_entry m b)]; cbn [dget]; rewrite ?dget_dremove;
    destruct (String.eqb n m); reflexivity.
Qed.

(* an item is right for b when it deletes a path b does not have or writes one it has: applying it
   leaves its path as in b, whatever the directory held *)
Definition right_for (b : list entry) (x : dkind * string) : Prop :=
  match fst x with DDel => ~ In (snd x) (map e_name b) | _ => In (snd x) (map e_name b) end.

Lemma in_spec_right_for : forall a b x, in_spec a b x -> right_for b x.
Proof.
  intros a b [[| |] n]; unfold in_spec, right_for; cbn [fst snd]; try tauto.
  intros [ea [eb [_ [Hb [_ [<- _]]]]]]. now apply in_map.
Qed.

Lemma apply_one_sets : forall b d x, right_for b x -> dget (snd x) (apply_one b d x) = dget (snd x) (dir_of b).
Proof.
  intros b d [k n] Hx. rewrite dget_apply_one, dget_dir_of, String.eqb_refl. unfold right_for in Hx. cbn [fst snd] in *.
  destruct (find_entry n b) as [e|] eqn:Ef.
  - destruct k; try reflexivity. destruct (find_entry_some _ _ _ Ef) as [He <-]. exfalso. apply Hx. now apply in_map.
  - apply find_entry_none in Ef. destruct k; tauto.
Qed.

Lemma apply_one_keeps : forall b d x n, right_for b x ->
  n = snd x \/ dget n d = dget n (dir_of b) -> dget n (apply_one b d x) = dget n (dir_of b).
Proof.
  intros b d x n Hx H. destruct (String.eqb n (snd x)) eqn:E.
  - apply String.eqb_eq in E. subst n. now apply apply_one_sets.
  - rewrite dget_apply_one, E. destruct H as [->|H]; [|exact H]. now rewrite String.eqb_refl in E.
Qed.

Lemma fold_apply_keeps : forall b xs d n, (forall x, In x xs -> right_for b x) ->
  In n (map snd xs) \/ dget n d = dget n (dir_of b) -> dget n (fold_left (apply_one b) xs d) = dget n (dir_of b).
Proof.
  induction xs as [|x xs IH]; intros d n Hx H; [destruct H as [[]|H]; exact H|].
  apply IH; [intros; apply Hx; now right|].
  destruct H as [[H|H]|H]; [right|now left|right]; apply apply_one_keeps; auto using in_eq.
Qed.

Lemma diff_complete : forall a b n, NoDup (map e_name b) ->
  In n (map snd (diff a b)) \/ dget n (dir_of a) = dget n (dir_of b).
Proof.
  intros a b n Hb. rewrite !dget_dir_of.
  assert (D : forall k, in_spec a b (k, n) -> In n (map snd (diff a b))).
  { intros k H. apply (diff_exact_b a b (k, n) Hb) in H. now apply (in_map snd) in H. }
  unfold in_spec in D. cbn [fst snd] in D.
  destruct (find_entry n a) as [ea|] eqn:Ea; destruct (find_entry n b) as [eb|] eqn:Eb; cbn [option_map]; auto.
  - destruct (find_entry_some _ _ _ Ea) as [Hia Hna]. destruct (find_entry_some _ _ _ Eb) as [Hib Hnb].
    destruct (string_dec (e_hash ea) (e_hash eb)) as [->|Hne]; [now right|left].
    apply (D DDif). exists ea, eb. auto.
  - destruct (find_entry_some _ _ _ Ea) as [Hia Hna]. apply find_entry_none in Eb. left.
    apply (D DDel). split; [rewrite <- Hna; now apply in_map|exact Eb].
  - destruct (find_entry_some _ _ _ Eb) as [Hib Hnb]. apply find_entry_none in Ea. left.
    apply (D DAdd). split; [rewrite <- Hnb; now apply in_map|exact Ea].
Qed.

Theorem update_exact_gen : forall a b d, NoDup (map e_name b) ->
  forall n, dget n d = dget n (dir_of a) -> dget n (update a b d) = dget n (dir_of b).
Proof.
  intros a b d Hb n Hd. unfold update. apply fold_apply_keeps.
  - intros x Hx. apply (in_spec_right_for a). now apply diff_exact_b.
  - rewrite Hd. now apply diff_complete.
Qed.
