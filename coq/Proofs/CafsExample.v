(* Non-vacuity: the hypotheses of the cafs theorems are satisfiable.  A concrete hash with 64-byte
   digests for which no input collides with an honest input of the content [1;2;3] at leaf size 2,
   and an empty store, meet every premise of the round-trip theorem. *)
From Coq Require Import List NArith Bool.
From DM Require Import Model.Cafs Proofs.CafsStore Proofs.CafsPut.
Import ListNotations.

Definition K1 : list N := repeat 1%N 64.
Definition K2 : list N := repeat 2%N 64.

Definition tag0 (o d : N) (b : bool) (x : list N) : N :=
  if N.eqb d 0 && N.eqb o 1 && negb b && bytes_eqb x [1;2]%N then 1%N
  else if N.eqb d 0 && N.eqb o 1 && b && bytes_eqb x [3]%N then 2%N
  else if N.eqb d 1 && N.eqb o 0 && b && bytes_eqb x (K1 ++ K2) then 3%N
  else 0%N.

Definition H0 (l o d : N) (b : bool) (x : list N) : list N := repeat (tag0 o d b x) 64.

Lemma H0_len : forall l o d b x, length (H0 l o d b x) = KS.
Proof. intros. unfold H0. now rewrite repeat_length. Qed.

Lemma and4 : forall a b c d : bool, a && b && c && d = true -> a = true /\ b = true /\ c = true /\ d = true.
Proof. intros a b c d. destruct a, b, c, d; auto; discriminate. Qed.

(* the input that gets a tag other than 0: H0 collides only where the tag is 0 *)
Definition untag (t : N) : N * N * bool * list N :=
  if N.eqb t 1 then (1, 0, false, [1; 2])%N else if N.eqb t 2 then (1, 0, true, [3])%N else (0, 1, true, K1 ++ K2)%N.

Lemma tag0_untag : forall o d b x, tag0 o d b x <> 0%N -> (o, d, b, x) = untag (tag0 o d b x).
Proof.
  intros o d b x. unfold tag0.
  destruct (N.eqb d 0 && N.eqb o 1 && negb b && bytes_eqb x [1; 2]%N) eqn:E1.
  { apply and4 in E1. destruct E1 as (->%N.eqb_eq & ->%N.eqb_eq & C & ->%bytes_eqb_eq). now destruct b. }
  destruct (N.eqb d 0 && N.eqb o 1 && b && bytes_eqb x [3]%N) eqn:E2.
  { apply and4 in E2. now destruct E2 as (->%N.eqb_eq & ->%N.eqb_eq & -> & ->%bytes_eqb_eq). }
  destruct (N.eqb d 1 && N.eqb o 0 && b && bytes_eqb x (K1 ++ K2)) eqn:E3; [|contradiction].
  apply and4 in E3. now destruct E3 as (->%N.eqb_eq & ->%N.eqb_eq & -> & ->%bytes_eqb_eq).
Qed.

Lemma repeat_inj : forall {A} (a b : A) n, repeat a (S n) = repeat b (S n) -> a = b.
Proof. intros A a b n E. now inversion E. Qed.

Definition c0 : list N := [1; 2; 3]%N.

Lemma split_c0 : split_leaves 2 c0 = [[1;2]; [3]]%N.
Proof. reflexivity. Qed.

Lemma keys_c0 : keys_of_leaves H0 2 0 (split_leaves 2 c0) = [K1; K2].
Proof. reflexivity. Qed.

Example hypotheses_satisfiable :
  (forall l o d b x, length (H0 l o d b x) = KS) /\
  nocoll H0 2 (split_leaves 2 c0) /\
  clean [] (blob_writes H0 2 (split_leaves 2 c0)).
Proof.
  split; [exact H0_len|]. split.
  - intros o d b x o' d' b' x' Hh E. unfold H0 in E. apply (repeat_inj _ _ 63) in E.
    assert (Ht : tag0 o d b x <> 0%N).
    { rewrite split_c0 in Hh. destruct Hh as [[-> [-> [-> ->]]]|[-> [i [Hn Hc]]]].
      - vm_compute. discriminate.
      - destruct i as [|[|i]]; try (destruct i; discriminate); inversion Hn; subst x;
        destruct Hc as [[Hl [-> ->]]|[Hl [-> ->]]]; cbn in Hl; try congruence; vm_compute; discriminate. }
    pose proof (tag0_untag o d b x Ht) as U. rewrite E in Ht, U.
    rewrite <- (tag0_untag o' d' b' x' Ht) in U. now injection U.
  - intros k v Hin. now left.
Qed.
