(* Proofs about Model/Param.v: the separators chosen occur in no value and no name; decoding an
   encoded parameter string gives back the flags and the non-empty fields; the two encoders
   (env_of is what they share); the encoder that excluded the values only is refuted. *)
From Coq Require Import List NArith Bool String Lia.
From DM Require Import Base.ListFacts Model.Param.
Import ListNotations.
Open Scope N_scope.

(* mem is existsb at N.eqb *)
Lemma mem_existsb : forall c l, mem c l = existsb (N.eqb c) l.
Proof. induction l as [|x t IH]; cbn; [reflexivity|]. now rewrite IH. Qed.

Lemma mem_In : forall c l, mem c l = true <-> In c l.
Proof. intros. rewrite mem_existsb. apply (existsb_eqb_In N.eqb N.eqb_eq). Qed.

Lemma mem_app : forall c a b, mem c (a ++ b) = mem c a || mem c b.
Proof. intros. rewrite !mem_existsb. apply existsb_app. Qed.

Lemma mem_concat_false : forall c (ls : list str) l, mem c (List.concat ls) = false -> In l ls -> mem c l = false.
Proof.
  induction ls as [|x t IH]; intros l H Hin; [destruct Hin|].
  cbn in H. rewrite mem_app in H. apply orb_false_iff in H. destruct H as [H1 H2].
  destruct Hin as [->|Hin]; auto.
Qed.

(* the used code points at or above c: first_free terminates because this number falls, which is
   where its fuel comes from *)
Definition count_ge (used : str) (c : N) : nat := List.length (filter (fun u => c <=? u) used).

(* stepping past c loses the occurrences of c *)
Lemma count_ge_succ : forall used c, (count_ge used (c + 1) + (if mem c used then 1 else 0) <= count_ge used c)%nat.
Proof.
  unfold count_ge. induction used as [|u t IH]; intros c; cbn [filter mem List.length]; [lia|].
  specialize (IH c).
  destruct (N.leb_spec (c + 1) u), (N.leb_spec c u), (N.eqb_spec c u); cbn [orb List.length]; try lia;
    destruct (mem c t); lia.
Qed.

Lemma first_free_spec : forall fuel used c, (count_ge used c < fuel)%nat ->
  c <= first_free fuel used c /\ mem (first_free fuel used c) used = false.
Proof.
  induction fuel as [|f IH]; intros used c H; [lia|].
  cbn [first_free]. destruct (mem c used) eqn:E.
  - pose proof (count_ge_succ used c) as Hlt. rewrite E in Hlt.
    destruct (IH used (c + 1)) as [H1 H2]; [lia|]. split; [lia|exact H2].
  - split; [lia|exact E].
Qed.

Lemma count_ge_le_length : forall used c, (count_ge used c <= List.length used)%nat.
Proof. intros. apply filter_length_le. Qed.

Lemma set_separators_spec : forall values i k, set_separators values = (i, k) ->
  i <> k /\ zero_char <= i /\ zero_char <= k /\
  mem i (List.concat values) = false /\ mem k (List.concat values) = false /\
  mem i param_name_chars = false /\ mem k param_name_chars = false.
Proof.
  intros values i k H. unfold set_separators in H.
  set (invalid := List.concat values ++ param_name_chars) in *.
  set (i0 := first_free (S (List.length invalid)) invalid zero_char) in *.
  set (k0 := first_free (S (List.length (invalid ++ [i0]))) (invalid ++ [i0]) zero_char) in *.
  assert (A : zero_char <= i0 /\ mem i0 invalid = false) by apply first_free_spec, le_n_S, count_ge_le_length.
  assert (B : zero_char <= k0 /\ mem k0 (invalid ++ [i0]) = false) by apply first_free_spec, le_n_S, count_ge_le_length.
  clearbody i0 k0. inversion H; subst i0 k0.
  destruct A as [A1 A2]. destruct B as [B1 B2].
  rewrite mem_app in B2. apply orb_false_iff in B2. destruct B2 as [B2 B3].
  unfold mem in B3. rewrite orb_false_r in B3. apply N.eqb_neq in B3.
  unfold invalid in A2, B2. rewrite mem_app in A2, B2.
  apply orb_false_iff in A2. apply orb_false_iff in B2.
  destruct A2, B2. repeat apply conj; auto.
Qed.

Lemma trim_suffix_snoc : forall i l, trim_suffix i (l ++ [i]) = l.
Proof. intros. unfold trim_suffix. rewrite rev_app_distr. cbn. now rewrite N.eqb_refl, rev_involutive. Qed.

Lemma enc_body_snoc : forall i k (xs : list (list N)) last,
  trim_suffix i (i :: k :: List.concat (map (fun it => it ++ [i]) (xs ++ [last])))
  = i :: k :: List.concat (map (fun it => it ++ [i]) xs) ++ last.
Proof.
  intros. rewrite map_app, concat_app. cbn [map List.concat].
  rewrite <- (trim_suffix_snoc i (i :: k :: List.concat (map (fun it => it ++ [i]) xs) ++ last)).
  f_equal. cbn. now rewrite <- !app_assoc.
Qed.

Lemma split_on_none : forall sep l, mem sep l = false -> split_on sep l = [l].
Proof.
  induction l as [|x t IH]; intros H; cbn in *; [reflexivity|].
  apply orb_false_iff in H. destruct H as [H1 H2]. rewrite N.eqb_sym in H1. rewrite H1, (IH H2). reflexivity.
Qed.

Lemma split_on_app : forall sep x rest, mem sep x = false ->
  split_on sep (x ++ sep :: rest) = x :: split_on sep rest.
Proof.
  induction x as [|c t IH]; intros rest H; cbn in *.
  - now rewrite N.eqb_refl.
  - apply orb_false_iff in H. destruct H as [H1 H2]. rewrite N.eqb_sym in H1. rewrite H1, (IH rest H2). reflexivity.
Qed.

Lemma split_on_items : forall sep (items : list str) last,
  (forall it, In it items -> mem sep it = false) -> mem sep last = false ->
  split_on sep (List.concat (map (fun it => it ++ [sep]) items) ++ last) = items ++ [last].
Proof.
  induction items as [|it t IH]; intros last H Hl; cbn.
  - now apply split_on_none.
  - rewrite <- !app_assoc. cbn. rewrite split_on_app by (apply H; now left).
    rewrite IH; auto. intros; apply H; now right.
Qed.

Lemma parse_item_field : forall k n v, mem k n = false -> mem k v = false ->
  parse_item k (n ++ [k] ++ v) = (n, v).
Proof. intros. unfold parse_item. cbn. rewrite split_on_app by auto. now rewrite split_on_none. Qed.

Lemma parse_item_flag : forall k f, mem k f = false -> parse_item k f = (f, cp "true").
Proof. intros. unfold parse_item. now rewrite split_on_none. Qed.

Lemma fields_decode : forall k (fields : list (list N * list N)),
  (forall nv, In nv fields -> mem k (fst nv) = false /\ mem k (snd nv) = false) ->
  map (parse_item k) (field_items k fields) = filter (fun nv => nonempty (snd nv)) fields.
Proof.
  induction fields as [|[n v] t IH]; intros H; [reflexivity|].
  unfold field_items in *. cbn [filter snd].
  destruct v as [|c v']; cbn [negb nonempty].
  - apply IH. intros; apply H; now right.
  - cbn [map fst snd]. rewrite IH by (intros; apply H; now right). f_equal.
    destruct (H (n, c :: v') (or_introl eq_refl)) as [H1 H2].
    now rewrite parse_item_field.
Qed.

Definition sep_free (i k : N) (s : str) : Prop := mem i s = false /\ mem k s = false.

Lemma nonempty_app_l : forall a b : str, nonempty a = true -> nonempty (a ++ b) = true.
Proof. destruct a; auto; discriminate. Qed.

(* the decoder reads the two separators off the front, then splits *)
Lemma dec_string_split : forall i k rest, i <> dot_char -> k <> dot_char ->
  dec_string (i :: k :: rest) = Some (map (parse_item k) (filter nonempty (split_on i rest))).
Proof.
  intros i k rest Hi Hk. unfold dec_string.
  now rewrite (proj2 (N.eqb_neq i dot_char) Hi), (proj2 (N.eqb_neq k dot_char) Hk).
Qed.

(* the items, each closed by the separator and the last separator trimmed, split into the items again *)
Lemma enc_body_split : forall i k (items : list str), k <> i ->
  (forall it, In it items -> nonempty it = true /\ mem i it = false) ->
  exists rest, trim_suffix i (i :: k :: List.concat (map (fun it => it ++ [i]) items)) = i :: k :: rest /\
               filter nonempty (split_on i rest) = items.
Proof.
  intros i k items Hki Hitems. destruct items as [|last xs _] using rev_ind.
  - exists []. split; [|reflexivity]. unfold trim_suffix. cbn. now rewrite (proj2 (N.eqb_neq k i) Hki).
  - exists (List.concat (map (fun it => it ++ [i]) xs) ++ last). split; [apply enc_body_snoc|].
    rewrite split_on_items.
    + apply filter_id. intros it Hin. now apply Hitems.
    + intros it Hin. apply Hitems. apply in_or_app. now left.
    + apply Hitems. apply in_or_app. right. now left.
Qed.

Theorem enc_dec : forall i k flags fields e,
  i <> k -> i <> dot_char -> k <> dot_char ->
  (forall f, In f flags -> nonempty f = true /\ sep_free i k f) ->
  (forall nv, In nv fields -> nonempty (fst nv) = true /\ sep_free i k (fst nv)) ->
  enc_string i k flags fields = Some e ->
  dec_string e = Some (expected flags fields).
Proof.
  intros i k flags fields e Hik Hi Hk Hfl Hfi Henc.
  unfold enc_string in Henc.
  destruct (existsb _ fields) eqn:Ex; [discriminate|]. injection Henc as <-.
  assert (Hvals : forall nv, In nv fields -> sep_free i k (snd nv)).
  { intros nv Hin. destruct (contains_sep i k (snd nv)) eqn:E.
    - rewrite (proj2 (existsb_exists _ fields) (ex_intro _ nv (conj Hin E))) in Ex. discriminate Ex.
    - unfold contains_sep in E. apply orb_false_iff in E. exact E. }
  destruct (enc_body_split i k (flags ++ field_items k fields)) as (rest & -> & Hsplit); [exact (not_eq_sym Hik)| |].
  { (* every item is non-empty and free of the item separator *)
    intros it Hin. apply in_app_or in Hin. destruct Hin as [Hin|Hin].
    - destruct (Hfl it Hin) as [? [? ?]]. auto.
    - unfold field_items in Hin. apply in_map_iff in Hin. destruct Hin as [nv [<- Hin]].
      apply filter_In in Hin. destruct Hin as [Hin _].
      destruct (Hfi nv Hin) as [Hn [Hn1 Hn2]]. destruct (Hvals nv Hin) as [Hv1 Hv2].
      split; [now apply nonempty_app_l|].
      rewrite !mem_app, Hn1, Hv1. cbn. rewrite !orb_false_r. apply N.eqb_neq. auto. }
  rewrite dec_string_split, Hsplit by assumption. f_equal.
  unfold expected. rewrite map_app. f_equal.
  - apply map_ext_in. intros f Hin. apply parse_item_flag. now destruct (Hfl f Hin) as [_ [_ ?]].
  - apply fields_decode. intros nv Hin. split; [apply (Hfi nv Hin)|apply (Hvals nv Hin)].
Qed.

Definition subset (a b : list N) : bool := forallb (fun x => mem x b) a.

Lemma subset_mem_false : forall a b c, subset a b = true -> mem c b = false -> mem c a = false.
Proof.
  intros a b c Hs Hb. destruct (mem c a) eqn:E; [|reflexivity].
  apply mem_In in E. unfold subset in Hs. rewrite forallb_forall in Hs.
  specialize (Hs c E). congruence.
Qed.

(* a flag or parameter name as the encoders use them: not empty, over paramNameChars *)
Definition name_ok (n : str) : bool := nonempty n && subset n param_name_chars.

Lemma name_ok_sep_free : forall i k n,
  mem i param_name_chars = false -> mem k param_name_chars = false ->
  name_ok n = true -> nonempty n = true /\ sep_free i k n.
Proof.
  intros i k n Hi Hk H. apply andb_prop in H. destruct H as [H1 H2].
  split; [exact H1|]. split; apply (subset_mem_false n param_name_chars); assumption.
Qed.

Lemma enc_dec_chosen : forall values i k flags fields e,
  set_separators values = (i, k) ->
  forallb name_ok flags = true -> forallb (fun nv => name_ok (fst nv)) fields = true ->
  enc_string i k flags fields = Some e ->
  dec_string e = Some (expected flags fields).
Proof.
  intros values i k flags fields e Es Hfl Hfi.
  destruct (set_separators_spec _ _ _ Es) as [Hik [Hi0 [Hk0 [_ [_ [Hin Hkn]]]]]].
  rewrite forallb_forall in Hfl, Hfi. unfold zero_char in Hi0, Hk0.
  apply enc_dec; [exact Hik|unfold dot_char; lia|unfold dot_char; lia| |].
  - intros f Hf. apply name_ok_sep_free; auto.
  - intros nv Hnv. apply name_ok_sep_free; auto.
Qed.

Lemma all_some_Forall2 : forall {A B} (f : A -> option B) l bs,
  all_some (map f l) = Some bs -> Forall2 (fun x e => f x = Some e) l bs.
Proof.
  induction l as [|x t IH]; intros bs H; cbn in H.
  - inversion H. constructor.
  - destruct (f x) eqn:E; [|discriminate].
    destruct (all_some (map f t)) eqn:E2; [|discriminate]. inversion H.
    constructor; auto.
Qed.

(* what fuse_env and pg_env have in common: one string for each item, one for the globals, all
   with the same separators; [missing] stands for the test on the mandatory parameters *)
Definition env_of {A} (values : list str) (items : list A) (fields : A -> list (str * str))
    (name : A -> str) (missing : bool) (gflags : list str) (gfields : list (str * str)) (gname : str) :=
  let '(i, k) := set_separators values in
  match all_some (map (fun b => enc_string i k [] (fields b)) items) with
  | None => None
  | Some bs =>
    if missing then None
    else match enc_string i k gflags gfields with
         | None => None
         | Some g => Some (combine (map name items) bs ++ [(gname, g)])
         end
  end.

Theorem env_of_roundtrip : forall {A} values (items : list A) fields name missing gflags gfields gname envs,
  env_of values items fields name missing gflags gfields gname = Some envs ->
  (forall b, forallb (fun nv => name_ok (fst nv)) (fields b) = true) ->
  forallb (fun nv => name_ok (fst nv)) gfields = true -> forallb name_ok gflags = true ->
  exists bs g,
    envs = combine (map name items) bs ++ [(gname, g)] /\
    dec_string g = Some (expected gflags gfields) /\
    Forall2 (fun b e => dec_string e = Some (expected [] (fields b))) items bs.
Proof.
  intros A values items fields name missing gflags gfields gname envs H Hf Hg Hgf. unfold env_of in H.
  destruct (set_separators values) as [i k] eqn:Es.
  destruct (all_some _) as [bs|] eqn:Eb; [|discriminate].
  destruct missing; [discriminate|].
  destruct (enc_string i k gflags gfields) as [g|] eqn:Eg; [|discriminate].
  injection H as <-. exists bs, g. split; [reflexivity|]. split.
  - exact (enc_dec_chosen _ _ _ _ _ _ Es Hgf Hg Eg).
  - apply all_some_Forall2 in Eb. eapply Forall2_impl; [|exact Eb].
    intros b e He. exact (enc_dec_chosen _ _ _ [] _ _ Es eq_refl (Hf b) He).
Qed.

Lemma fuse_env_eq : forall p, fuse_env p =
  env_of (fuse_values p) (fp_bundles p) fb_fields (fun b => cp "dm_fuse_bd_" ++ fb_name b)
    (negb (nonempty (fp_coord p)) || negb (nonempty (fp_bucket p)) || negb (nonempty (fp_context p)))
    (fuse_global_flags p) (fuse_global_fields p) (cp "dm_fuse_opts").
Proof. reflexivity. Qed.

Lemma pg_env_eq : forall p, pg_env p =
  env_of (pg_values p) (pp_dbs p) pd_fields (fun d => cp "dm_pg_db_" ++ pd_name d)
    (negb (nonempty (pp_coord p))) (pg_global_flags p) (pg_global_fields p) (cp "dm_pg_opts").
Proof. reflexivity. Qed.

(* without the parameter-name characters in the excluded set the round trip fails: the
   pre-repair encoder, witness = values using every code point from '0' to 'R' *)
Definition set_separators_old (values : list (list N)) : N * N :=
  let invalid := List.concat values in
  let isep := first_free (S (List.length invalid)) invalid zero_char in
  let invalid2 := invalid ++ [isep] in
  (isep, first_free (S (List.length invalid2)) invalid2 zero_char).

Example old_separators_refuted :
  let v := map N.of_nat (seq 48 35) in        (* '0' .. 'R' *)
  let '(i, k) := set_separators_old [cp "true"; v] in
  exists e, enc_string i k [cp "S"] [(cp "c", v)] = Some e /\
            dec_string e <> Some (expected [cp "S"] [(cp "c", v)]).
Proof. vm_compute. eexists; split; [reflexivity|discriminate]. Qed.

Example fuse_example :
  exists envs, fuse_env {| fp_sleep := true; fp_coord := cp "/tmp/coord"; fp_bucket := cp "bkt";
                           fp_context := cp "ctx-0123456789:;<=>?@ABCDEFGHIJKLMNOPQR";
                           fp_bundles := [ {| fb_name := cp "in"; fb_srcpath := cp "/data"; fb_srcrepo := cp "r";
                                              fb_srclabel := cp "l"; fb_srcbundle := []; fb_destpath := [];
                                              fb_destrepo := []; fb_destmsg := []; fb_destlabel := [];
                                              fb_destbundleid := [] |} ] |} = Some envs.
Proof. vm_compute. eexists; reflexivity. Qed.
