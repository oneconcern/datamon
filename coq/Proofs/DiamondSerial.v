(* C12: schedules in which commits do not overlap, as lists of items (a whole commit, or one event
   of another actor); what holds of the state between two items; the five steps of a commit. *)
From Coq Require Import List Arith Lia.
From DM Require Import Model.Diamond Proofs.DiamondProofs.
Import ListNotations.
Open Scope list_scope.

Inductive item := ICommit (i : nat) | IOther (e : event).

Definition is_commit (a : actor) : bool := match a with ACommit _ _ _ => true | _ => false end.

Definition event_actor (e : event) : nat := match e with EStep i | ECrash i => i end.

(* an item is well-formed for a state: ICommit names a commit, IOther names another kind of actor *)
Definition item_ok (st : dstate) (it : item) : Prop :=
  match it with
  | ICommit i => exists a, nth_error (d_actors st) i = Some a /\ is_commit a = true
  | IOther e => forall a, nth_error (d_actors st) (event_actor e) = Some a -> is_commit a = false
  end.

Definition apply_item (st : dstate) (it : item) : dstate :=
  match it with
  | ICommit i => run (repeat (EStep i) 5) st
  | IOther e => apply_event st e
  end.

Definition items_ok_run : forall (items : list item) (st : dstate), Prop :=
  fix go items st := match items with
                     | [] => True
                     | it :: rest => item_ok st it /\ go rest (apply_item st it)
                     end.

Record between_commits (st : dstate) : Prop := {
  bc_quiet : forall i pc c w, nth_error (d_actors st) i = Some (ACommit pc c w) -> pc = CReady \/ pc = CFin;
  bc_none : d_term st = None -> d_bundles st = [];
  bc_le : List.length (d_bundles st) <= 1
}.

Lemma kinds_stable_set : forall i a st j, i < List.length (d_actors st) ->
  (forall b, nth_error (d_actors st) i = Some b -> is_commit b = is_commit a) ->
  forall b, nth_error (d_actors (set_actor i a st)) j = Some b ->
  exists b', nth_error (d_actors st) j = Some b' /\ is_commit b' = is_commit b.
Proof.
  intros i a st j Hi Hk b Hb.
  destruct (nth_error (d_actors st) i) as [b'|] eqn:E; [|apply nth_error_None in E; lia].
  destruct (Nat.eq_dec i j) as [<-|Hne].
  - rewrite (nth_set_actor_same _ _ _ _ E) in Hb. injection Hb as <-. exists b'. split; [exact E|]. now apply Hk.
  - rewrite (nth_set_actor_other _ _ _ _ _ E Hne) in Hb. eauto.
Qed.

Lemma other_stays_other : forall e st a', (forall a, nth_error (d_actors st) (event_actor e) = Some a -> is_commit a = false) ->
  nth_error (d_actors (apply_event st e)) (event_actor e) = Some a' -> is_commit a' = false.
Proof.
  intros e st a' Hok.
  (* no step and no crash turns a cancel or a split run into a commit *)
  destruct e as [j|j]; cbn [apply_event event_actor] in *.
  - step_cases j st; try discriminate (Hok _ eq_refl); erewrite ?nth_set_actor_same, ?Ea by exact Ea;
      intros Ha'; try discriminate Ha'; now injection Ha' as <-.
  - unfold crash. destruct (nth_error (d_actors st) j) as [[]|] eqn:Ea; try discriminate (Hok _ eq_refl);
      erewrite ?nth_set_actor_same, ?Ea by exact Ea; intros Ha'; try discriminate Ha'; now injection Ha' as <-.
Qed.

Lemma between_other : forall st e, between_commits st -> item_ok st (IOther e) -> between_commits (apply_event st e).
Proof.
  intros st e [Jq Jn Jl] Hok.
  assert (Eb : d_bundles (apply_event st e) = d_bundles st).
  { destruct (w_bundles _ _ _ (event_writes e st)) as [E|(i & c & w & -> & Ha & _)]; [exact E|discriminate (Hok _ Ha)]. }
  constructor; rewrite ?Eb.
  - intros i pc c w Ha'. destruct (event_slot e st i) as [E|Hi].
    + rewrite E in Ha'. eauto.
    + (* the acting actor was no commit, and is none now *)
      assert (Ei : event_actor e = i) by (destruct Hi as [-> | ->]; reflexivity). subst i.
      discriminate (other_stays_other e st _ Hok Ha').
  - intros Hn. apply Jn. destruct (d_term st) eqn:Et; [|reflexivity].
    rewrite (w_term _ _ _ (event_writes e st) _ Et) in Hn. discriminate.
  - exact Jl.
Qed.

(* What a step of a commit does to the commit, the final descriptor and the bundles.  The state
   after the step is named so that it can replace [fst (step i st)] where the steps are chained. *)
Lemma step_commit : forall i st pc c w, nth_error (d_actors st) i = Some (ACommit pc c w) ->
  exists st', fst (step i st) = st' /\
  match pc with
  | CReady => nth_error (d_actors st') i = Some (ACommit (if d_term st then CFin else CCollect) c w) /\
              d_term st' = d_term st /\ d_bundles st' = d_bundles st
  | CCollect => nth_error (d_actors st') i = Some (match d_done st with [] => ACommit CFin [] w | ds => ACommit CWriteLists ds w end) /\
                d_term st' = d_term st /\ d_bundles st' = d_bundles st
  | CWriteLists => nth_error (d_actors st') i = Some (ACommit CWriteBundle c true) /\
                   d_term st' = d_term st /\ d_bundles st' = d_bundles st
  | CWriteBundle => nth_error (d_actors st') i = Some (ACommit CWriteDone c true) /\
                    d_term st' = d_term st /\ d_bundles st' = (i, c) :: d_bundles st
  | CWriteDone => nth_error (d_actors st') i = Some (ACommit CFin c (if d_term st then w else true)) /\
                  d_term st' = Some (match d_term st with Some t => t | None => TDone i end) /\ d_bundles st' = d_bundles st
  | CFin => st' = st
  end.
Proof.
  intros i st pc c w Ha.
  rewrite step_eq, Ha.
  destruct pc; cbn [step_of]; [destruct (d_term st) eqn:E|destruct (d_done st) eqn:E| | |destruct (d_term st) eqn:E|]; cbn [fst];
    (eexists; split; [reflexivity|]); erewrite ?nth_set_actor_same by exact Ha; repeat apply conj; try reflexivity; exact E.
Qed.

Lemma run_S : forall n i st, run (repeat (EStep i) (S n)) st = run (repeat (EStep i) n) (fst (step i st)).
Proof. reflexivity. Qed.

Lemma run_fin : forall n i st c w, nth_error (d_actors st) i = Some (ACommit CFin c w) -> run (repeat (EStep i) n) st = st.
Proof.
  induction n as [|n IH]; intros i st c w H; [reflexivity|]. rewrite run_S.
  destruct (step_commit i st _ c w H) as (s & -> & ->). now apply (IH i st c w).
Qed.

Lemma run_steps_frame : forall n i st j, i <> j ->
  nth_error (d_actors (run (repeat (EStep i) n) st)) j = nth_error (d_actors st) j.
Proof. induction n as [|n IH]; intros i st j H; [reflexivity|]. now rewrite run_S, IH, step_frame. Qed.

Lemma commit_block : forall i st c w, d_bundles st = [] \/ d_term st <> None -> nth_error (d_actors st) i = Some (ACommit CReady c w) ->
  let st' := run (repeat (EStep i) 5) st in
  (exists c' w', nth_error (d_actors st') i = Some (ACommit CFin c' w')) /\
  ((d_term st' = d_term st /\ d_bundles st' = d_bundles st) \/
   (d_term st' <> None /\ List.length (d_bundles st') = 1)).
Proof.
  intros i st c w Hb Ha. cbv zeta. rewrite run_S. destruct (step_commit i st _ c w Ha) as (s1 & -> & A1 & T1 & B1).
  destruct (d_term st) eqn:Et.
  { (* refused *) rewrite (run_fin 4 i s1 c w A1). split; [exists c, w; exact A1|left; split; congruence]. }
  destruct Hb as [Hb|[]]; [|reflexivity].
  rewrite run_S. destruct (step_commit i s1 _ c w A1) as (s2 & -> & A2 & T2 & B2).
  destruct (d_done s1) as [|p ds].
  { (* nothing to commit *) rewrite (run_fin 3 i s2 [] w A2). split; [exists [], w; exact A2|left; split; congruence]. }
  rewrite run_S. destruct (step_commit i s2 _ _ _ A2) as (s3 & -> & A3 & T3 & B3).
  rewrite run_S. destruct (step_commit i s3 _ _ _ A3) as (s4 & -> & A4 & T4 & B4).
  rewrite run_S. destruct (step_commit i s4 _ _ _ A4) as (s5 & -> & A5 & T5 & B5).
  cbn [run repeat fold_left]. split; [do 2 eexists; exact A5|]. right.
  rewrite T5, B5, B4, B3, B2, B1, Hb. split; [discriminate|reflexivity].
Qed.

Lemma between_commit : forall st i, between_commits st -> item_ok st (ICommit i) -> between_commits (apply_item st (ICommit i)).
Proof.
  intros st i [Jq Jn Jl] [[pc c w| |] [Ha Hc]]; try discriminate. cbn [apply_item].
  destruct (Jq i _ _ _ Ha) as [-> | ->]; [|now rewrite (run_fin 5 i st c w Ha)].
  assert (Hb : d_bundles st = [] \/ d_term st <> None) by (destruct (d_term st); [right; discriminate|left; now apply Jn]).
  destruct (commit_block i st c w Hb Ha) as ((c' & w' & Hi) & Hres). constructor.
  - intros j pc' cj wj Hj. destruct (Nat.eq_dec i j) as [<-|Hne]; [rewrite Hi in Hj; injection Hj as <- _ _; now right|].
    rewrite run_steps_frame in Hj by exact Hne. eauto.
  - destruct Hres as [[-> ->]|[Ht _]]; [exact Jn|intros Hn; now destruct Ht].
  - destruct Hres as [[_ ->]|[_ ->]]; [exact Jl|constructor].
Qed.

Lemma between_init : forall actors, all_fresh actors -> between_commits (init actors).
Proof.
  intros actors Hf. constructor; auto.
  intros i pc c w Ha. apply nth_error_In, Hf in Ha. destruct pc; auto; discriminate.
Qed.

Lemma between_items : forall items st, between_commits st -> items_ok_run items st ->
  between_commits (fold_left apply_item items st).
Proof.
  induction items as [|it items IH]; intros st Jst Hok; [exact Jst|].
  destruct Hok as [H1 H2]. apply IH; [|exact H2]. destruct it as [i|e]; [now apply between_commit|now apply between_other].
Qed.
