(* Proofs about Model/LocalFS.v: finite-map laws, the token lookup of a listing, the listing without
   a delimiter, exclusive creation.  Exactness, order and paging of listings are those of
   Base/Listing.v and Base/Paging.v. *)
From Coq Require Import List String NArith Sorted.
From DM Require Import Base.Str Base.StrOrder Base.Paging Base.Listing Base.ListFacts Model.LocalFS.
Import ListNotations.
Open Scope list_scope.

(* lget / lremove are ListFacts.aget / aremove at strings and bytes *)
Lemma lget_lremove : forall k k' s, lget k' (lremove k s) = if String.eqb k' k then None else lget k' s.
Proof. exact (aget_aremove String.eqb String.eqb_eq). Qed.

(* what a put does to one key: nothing to another key; to its own, the new bytes unless it is
   create-if-absent and the key exists *)
Lemma lget_lput : forall k v e s k', lget k' (snd (lput k v e s)) =
  if String.eqb k' k then match lget k s with Some old => Some (if e then old else v) | None => Some v end
  else lget k' s.
Proof.
  intros k v e s k'. unfold lput. destruct (lget k s) as [old|] eqn:E; [destruct e|]; cbn [snd lget];
    rewrite ?lget_lremove; destruct (String.eqb k' k) eqn:E'; try reflexivity.
  apply String.eqb_eq in E'. now subst k'.
Qed.

Lemma exact_seek_suffix : forall pre k suf,
  StronglySorted slt (pre ++ k :: suf) -> exact_seek k (pre ++ k :: suf) = k :: suf.
Proof. intros. unfold exact_seek. now rewrite find_eq_suffix. Qed.

(* without a delimiter the listing is exactly the stored keys that have the prefix *)
Corollary list_all_keys : forall p s x,
  In x (list_all p EmptyString s) <-> In x (map fst s) /\ starts_with p x = true.
Proof.
  intros p s x. unfold list_all. rewrite list_keys_exact. unfold cut. split.
  - intros [k [H1 [H2 ->]]]. auto.
  - intros [H1 H2]. exists x. auto.
Qed.

(* create-if-absent writers of one key, in the order in which their O_EXCL opens take effect *)
Fixpoint excl_writers (k : string) (ws : list (list N)) (s : lfs) : list lres * lfs :=
  match ws with
  | [] => ([], s)
  | w :: t => let '(r, s') := lput k w true s in let '(rs, s'') := excl_writers k t s' in (r :: rs, s'')
  end.

Lemma excl_all_fail : forall k ws s, lget k s <> None ->
  fst (excl_writers k ws s) = map (fun _ => LExists) ws /\ snd (excl_writers k ws s) = s.
Proof.
  induction ws as [|w ws IH]; intros s Hn; cbn [excl_writers]; [auto|].
  destruct (IH s Hn) as [A B]. unfold lput. destruct (lget k s); [|congruence].
  destruct (excl_writers k ws s) as [rs s'']. cbn in *. now subst.
Qed.

(* non-vacuity / sanity: a store with prefix-related names *)
Example listing_example :
  list_all "bundles/repo/" "/" [("bundles/repo/b1/bundle.yaml", []); ("bundles/repo2/b9/bundle.yaml", []);
                                ("bundles/repo/b1/bundle-files-0.yaml", []); ("bundles/repo/a b/x", [])]%string
  = ["bundles/repo/a b/"; "bundles/repo/b1/"]%string.
Proof. vm_compute. reflexivity. Qed.
