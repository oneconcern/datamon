(* C11: the diamond commit merge (Model/Merge.v).  [best] is a maximum for recency; the winner of a
   path is one of its versions that none exceeds; what is kept are the other splits' latest versions
   that differ from it; the bundle is a map from names to contents in which the last write wins. *)
From Coq Require Import List String NArith Bool.
From DM Require Import Base.Str Base.Ord Base.ListFacts Model.ListOps Model.Merge.
Import ListNotations.
Open Scope list_scope.

Section OrdFacts.
  Context {A : Type} (o : ord A).
  Definition gt (a b : A) : bool := match cmp o a b with Gt => true | _ => false end.

  Lemma gt_false_trans : forall a b c, gt a b = false -> gt b c = false -> gt a c = false.
  Proof.
    unfold gt. intros a b c H1 H2.
    destruct (cmp o a b) eqn:E1; try discriminate; destruct (cmp o b c) eqn:E2; try discriminate.
    - apply (cmp_eq o) in E1. subst. now rewrite E2.
    - apply (cmp_eq o) in E1. subst. now rewrite E2.
    - apply (cmp_eq o) in E2. subst. now rewrite E1.
    - now rewrite (cmp_trans o _ _ _ E1 E2).
  Qed.

  Lemma gt_true_false : forall a b, gt a b = true -> gt b a = false.
  Proof. unfold gt. intros a b H. rewrite (cmp_anti o a b). destruct (cmp o a b); try discriminate. reflexivity. Qed.

  Lemma gt_irrefl : forall a, gt a a = false.
  Proof. intros. unfold gt. now rewrite (cmp_refl o). Qed.

  Lemma gt_total : forall a b, gt a b = false -> gt b a = false -> a = b.
  Proof.
    unfold gt. intros a b H1 H2. rewrite (cmp_anti o a b) in H2.
    destruct (cmp o a b) eqn:E; try discriminate. now apply (cmp_eq o).
  Qed.
End OrdFacts.

(* more_recent a b unfolds to gt ord_rkey (rkey a) (rkey b) *)
Lemma more_recent_irrefl : forall a, more_recent a a = false.
Proof. intros a. exact (gt_irrefl ord_rkey (rkey a)). Qed.

Lemma more_recent_asym : forall a b, more_recent a b = true -> more_recent b a = false.
Proof. intros a b. exact (gt_true_false ord_rkey (rkey a) (rkey b)). Qed.

Lemma not_more_recent_trans : forall a b c, more_recent a b = false -> more_recent b c = false -> more_recent a c = false.
Proof. intros a b c. exact (gt_false_trans ord_rkey (rkey a) (rkey b) (rkey c)). Qed.

Lemma not_more_recent_time : forall a b, more_recent a b = false -> (v_time a <= v_time b)%N.
Proof.
  intros a b H. unfold more_recent, rkey in H. cbn [cmp ord_rkey ord_pair fst snd] in H.
  destruct (cmp ord_N (v_time a) (v_time b)) eqn:E; try discriminate.
  - apply N.compare_eq in E. rewrite E. apply N.le_refl.
  - apply N.compare_lt_iff in E. now apply N.lt_le_incl.
Qed.

Definition best_step (acc : option ver) (v : ver) : option ver :=
  match acc with None => Some v | Some w => if more_recent v w then Some v else Some w end.

(* the accumulator is a maximum of what has been seen *)
Lemma best_from : forall l a, exists w, fold_left best_step l (Some a) = Some w /\ In w (a :: l) /\
  forall v, In v (a :: l) -> more_recent v w = false.
Proof.
  induction l as [|x l IH]; intros a; cbn [fold_left].
  - exists a. split; [reflexivity|]. split; [now left|]. intros v [<-|[]]. apply more_recent_irrefl.
  - (* the fold goes on from m, the more recent of a and x *)
    assert (Hm : exists m, best_step (Some a) x = Some m /\ In m [a; x] /\ more_recent a m = false /\ more_recent x m = false).
    { cbn [best_step]. destruct (more_recent x a) eqn:E.
      - exists x. split; [reflexivity|]. split; [right; now left|]. split; [now apply more_recent_asym|apply more_recent_irrefl].
      - exists a. split; [reflexivity|]. split; [now left|]. split; [apply more_recent_irrefl|exact E]. }
    destruct Hm as (m & -> & Hm & Ha & Hx). destruct (IH m) as (w & Hw & Hin & Hmax).
    assert (Hmw : more_recent m w = false) by (apply Hmax; now left).
    exists w. split; [exact Hw|]. split.
    + destruct Hin as [<-|Hin]; [|right; now right]. destruct Hm as [<-|[<-|[]]]; [now left|right; now left].
    + intros v [<-|[<-|Hv]].
      * exact (not_more_recent_trans _ _ _ Ha Hmw).
      * exact (not_more_recent_trans _ _ _ Hx Hmw).
      * apply Hmax. now right.
Qed.

Lemma best_spec : forall l, match best l with
                            | None => l = []
                            | Some w => In w l /\ forall v, In v l -> more_recent v w = false
                            end.
Proof.
  intros [|a l]; [reflexivity|]. unfold best. cbn [fold_left]. change (fold_left _ l (Some a)) with (fold_left best_step l (Some a)).
  destruct (best_from l a) as [w [Hw [Hin Hmax]]]. rewrite Hw. auto.
Qed.

Lemma uniq_strs_In : forall l x, In x (uniq_strs l) <-> In x l.
Proof.
  induction l as [|a l IH]; intros x; cbn [uniq_strs]; [tauto|]. cbn [In]. rewrite filter_In, IH.
  destruct (String.eqb_spec a x) as [->|Hne]; [tauto|]. split; [tauto|intros [H|H]; auto].
Qed.

Lemma omap_In : forall {A B} (f : A -> option B) l y, In y (omap f l) <-> exists x, In x l /\ f x = Some y.
Proof.
  induction l as [|a l IH]; intros y; cbn [omap].
  - split; [intros []|intros [x [[] _]]].
  - destruct (f a) eqn:E.
    + cbn [In]. rewrite IH. split.
      * intros [<-|[x [Hx Hf]]]; [exists a; split; [now left|exact E]|exists x; split; [now right|exact Hf]].
      * intros [x [[<-|Hx] Hf]]; [left; congruence|right; exists x; auto].
    + rewrite IH. split.
      * intros [x [Hx Hf]]. exists x. split; [now right|exact Hf].
      * intros [x [[<-|Hx] Hf]]; [congruence|exists x; auto].
Qed.

Lemma versions_of_In : forall p S v, In v (versions_of p S) <-> In v S /\ v_path v = p.
Proof. intros. unfold versions_of. rewrite filter_In, String.eqb_eq. tauto. Qed.

Lemma latest_of_split_spec : forall p s S u, latest_of_split p s S = Some u ->
  In u S /\ v_path u = p /\ v_split u = s /\
  forall v, In v S -> v_path v = p -> v_split v = s -> more_recent v u = false.
Proof.
  intros p s S u H. unfold latest_of_split in H.
  pose proof (best_spec (filter (fun v => String.eqb (v_split v) s) (versions_of p S))) as B. rewrite H in B.
  destruct B as [Hin Hmax]. apply filter_In in Hin. destruct Hin as [Hin Hs]. apply versions_of_In in Hin.
  apply String.eqb_eq in Hs. repeat split; try tauto.
  intros v Hv Hp Hsv. apply Hmax. apply filter_In. split; [apply versions_of_In; auto|now apply String.eqb_eq].
Qed.

Lemma latest_of_split_exists : forall p S v, In v S -> v_path v = p ->
  exists u, latest_of_split p (v_split v) S = Some u.
Proof.
  intros p S v Hv Hp. unfold latest_of_split.
  pose proof (best_spec (filter (fun x => String.eqb (v_split x) (v_split v)) (versions_of p S))) as B.
  destruct (best _) as [u|]; [eauto|].
  assert (Hin : In v (filter (fun x => String.eqb (v_split x) (v_split v)) (versions_of p S))).
  { apply filter_In. split; [apply versions_of_In; auto|apply String.eqb_refl]. }
  rewrite B in Hin. destruct Hin.
Qed.

Lemma split_latests_In : forall p S u, In u (split_latests p S) <-> latest_of_split p (v_split u) S = Some u.
Proof.
  intros p S u. unfold split_latests. rewrite omap_In. split.
  - intros [s [Hs Hu]]. destruct (latest_of_split_spec _ _ _ _ Hu) as [_ [_ [<- _]]]. exact Hu.
  - intros Hu. exists (v_split u). split; [|exact Hu]. apply uniq_strs_In. apply in_map_iff. exists u. split; [reflexivity|].
    destruct (latest_of_split_spec _ _ _ _ Hu) as [Hin [Hp _]]. apply versions_of_In. auto.
Qed.

Lemma split_latests_sub : forall p S u, In u (split_latests p S) -> In u S /\ v_path u = p.
Proof. intros p S u H. apply split_latests_In, latest_of_split_spec in H. tauto. Qed.

Lemma paths_of_In : forall S p, In p (paths_of S) <-> exists v, In v S /\ v_path v = p.
Proof. intros. unfold paths_of. rewrite uniq_strs_In, in_map_iff. split; intros (v & H1 & H2); eauto. Qed.

Lemma split_latests_cover : forall p S v, In v S -> v_path v = p ->
  exists u, In u (split_latests p S) /\ more_recent v u = false.
Proof.
  intros p S v Hv Hp. destruct (latest_of_split_exists p S v Hv Hp) as [u Hu]. exists u.
  destruct (latest_of_split_spec _ _ _ _ Hu) as (_ & _ & Es & Hmax). split; [|auto].
  apply split_latests_In. now rewrite Es.
Qed.

Lemma winner_spec : forall p S w, winner p S = Some w ->
  In w S /\ v_path w = p /\ forall v, In v S -> v_path v = p -> more_recent v w = false.
Proof.
  intros p S w H. unfold winner in H. pose proof (best_spec (split_latests p S)) as B. rewrite H in B. destruct B as [Hw Hmax].
  destruct (split_latests_sub _ _ _ Hw) as [HwS Hwp]. split; [exact HwS|]. split; [exact Hwp|].
  intros v Hv Hp. destruct (split_latests_cover p S v Hv Hp) as (u & Hu & Hvu).
  apply not_more_recent_trans with u; [exact Hvu|now apply Hmax].
Qed.

Lemma winner_none : forall p S, winner p S = None <-> ~ In p (paths_of S).
Proof.
  intros p S. rewrite paths_of_In. split.
  - intros H (v & Hv & Hp). destruct (split_latests_cover p S v Hv Hp) as (u & Hu & _).
    unfold winner in H. pose proof (best_spec (split_latests p S)) as B. rewrite H in B. now rewrite B in Hu.
  - intros H. destruct (winner p S) as [w|] eqn:E; [|reflexivity]. destruct H. apply winner_spec in E. exists w. tauto.
Qed.

Theorem conflicts_exact : forall p S v, In v (conflicts_of p S) <->
  exists w, winner p S = Some w /\ In v (split_latests p S) /\ v_split v <> v_split w /\ v_hash v <> v_hash w.
Proof.
  intros p S v. unfold conflicts_of. destruct (winner p S) as [w|].
  - rewrite filter_In. split.
    + intros [Hin Hc]. apply andb_prop in Hc. destruct Hc as [H1 H2]. exists w. repeat split; auto.
      * intros E. rewrite E, String.eqb_refl in H1. discriminate.
      * intros E. rewrite E, String.eqb_refl in H2. discriminate.
    + intros [w' [E [Hin [H1 H2]]]]. inversion E. split; [exact Hin|].
      apply andb_true_intro. split; apply negb_true_iff; apply String.eqb_neq; auto.
  - split; [intros []|intros [w [E _]]; discriminate].
Qed.

Theorem kept_exact : forall dir S e, In e (kept dir S) <->
  exists p v, In p (paths_of S) /\ In v (conflicts_of p S) /\ e = (deconflict dir (v_split v) p, (v_hash v, v_size v)).
Proof.
  intros dir S e. unfold kept. rewrite in_flat_map. split.
  - intros [p [Hp He]]. apply in_map_iff in He. destruct He as [v [<- Hv]]. exists p, v. auto.
  - intros [p [v [Hp [Hv ->]]]]. exists p. split; [exact Hp|]. apply in_map_iff. exists v. auto.
Qed.

Lemma conflict_is_kept : forall dir p S v, In v (conflicts_of p S) ->
  In (deconflict dir (v_split v) p, (v_hash v, v_size v)) (kept dir S).
Proof.
  intros dir p S v Hv. apply kept_exact. exists p, v. split; [|auto].
  (* its path is one of the paths *)
  apply conflicts_exact in Hv. destruct Hv as (w & _ & Hin & _).
  apply split_latests_sub in Hin. apply paths_of_In. eauto.
Qed.

(* the bundle read as a map from names to contents *)
Fixpoint lookup (p : string) (l : list oentry) : option (string * N) :=
  match l with
  | [] => None
  | x :: t => if String.eqb p (fst x) then Some (snd x) else lookup p t
  end.

Lemma lookup_put : forall l e p, lookup p (put_entry e l) = if String.eqb p (fst e) then Some (snd e) else lookup p l.
Proof.
  induction l as [|x t IH]; intros e p; cbn [put_entry lookup]; [reflexivity|].
  destruct (String.ltb (fst e) (fst x)); [reflexivity|].
  destruct (String.eqb (fst e) (fst x)) eqn:E.
  - apply String.eqb_eq in E. cbn [lookup]. rewrite <- E. destruct (String.eqb p (fst e)); reflexivity.
  - cbn [lookup]. rewrite IH. destruct (String.eqb p (fst x)) eqn:Ex; [|reflexivity].
    apply String.eqb_eq in Ex. subst p. rewrite String.eqb_sym, E. reflexivity.
Qed.

Lemma lookup_app : forall a b p, lookup p (a ++ b) = match lookup p a with Some v => Some v | None => lookup p b end.
Proof. induction a as [|x a IH]; intros b p; cbn [app lookup]; [reflexivity|]. destruct (String.eqb p (fst x)); auto. Qed.

Lemma lookup_fold_put : forall l acc p,
  lookup p (fold_left (fun a e => put_entry e a) l acc) =
  match lookup p (rev l) with Some v => Some v | None => lookup p acc end.
Proof.
  induction l as [|e l IH]; intros acc p; cbn [fold_left rev]; [reflexivity|].
  rewrite IH, lookup_put, lookup_app. destruct (lookup p (rev l)); [reflexivity|]. cbn [lookup].
  destruct (String.eqb p (fst e)); reflexivity.
Qed.

Lemma lookup_by_name : forall l p, lookup p (by_name l) = lookup p (rev l).
Proof. intros. unfold by_name. rewrite lookup_fold_put. destruct (lookup p (rev l)); reflexivity. Qed.

Lemma lookup_notin : forall l p, ~ In p (map fst l) -> lookup p l = None.
Proof.
  induction l as [|x l IH]; intros p H; cbn [lookup]; [reflexivity|].
  destruct (String.eqb p (fst x)) eqn:E; [apply String.eqb_eq in E; exfalso; apply H; left; now symmetry|].
  apply IH. intros Hin. apply H. now right.
Qed.

Lemma uniq_strs_nodup : forall l, NoDup (uniq_strs l).
Proof.
  induction l as [|a l IH]; constructor.
  - intros H. apply filter_In in H. destruct H as [_ H]. rewrite String.eqb_refl in H. discriminate.
  - now apply NoDup_filter.
Qed.

Lemma omap_app : forall {A B} (f : A -> option B) a b, omap f (a ++ b) = omap f a ++ omap f b.
Proof. induction a as [|x a IH]; intros b; cbn [app omap]; [reflexivity|]. rewrite IH. now destruct (f x). Qed.

Lemma omap_rev : forall {A B} (f : A -> option B) l, omap f (rev l) = rev (omap f l).
Proof.
  induction l as [|x l IH]; cbn [rev omap]; [reflexivity|]. rewrite omap_app, IH. cbn [omap].
  destruct (f x); [reflexivity|apply app_nil_r].
Qed.

(* the table that lists, for the keys ks, what f answers: looked up at p it gives f's answer at p *)
Lemma lookup_table : forall {A} (f : string -> option A) (c : A -> string * N) ks p,
  lookup p (omap (fun k => option_map (fun w => (k, c w)) (f k)) ks) =
  if existsb (String.eqb p) ks then option_map c (f p) else None.
Proof.
  intros A f c ks p. induction ks as [|a ks IH]; cbn [omap existsb]; [reflexivity|].
  destruct (f a) as [w|] eqn:Ea; cbn [option_map lookup fst snd]; rewrite IH; destruct (String.eqb_spec p a) as [->|_].
  - now rewrite Ea.
  - reflexivity.
  - rewrite Ea. now destruct (existsb _ ks).
  - reflexivity.
Qed.

Lemma lookup_mains : forall S p, lookup p (by_name (mains S)) = option_map (fun w => (v_hash w, v_size w)) (winner p S).
Proof.
  intros S p. unfold mains. rewrite lookup_by_name, <- omap_rev, (lookup_table (fun p => winner p S)).
  destruct (existsb _ _) eqn:E; [reflexivity|].
  rewrite (proj2 (winner_none p S)); [reflexivity|]. intros Hin. apply in_rev, (existsb_eqb_In String.eqb String.eqb_eq) in Hin. congruence.
Qed.

Lemma kept_names : forall dir S n, In n (map fst (kept dir S)) -> starts_with (dir ++ "/")%string n = true.
Proof.
  intros dir S n H. apply in_map_iff in H. destruct H as [e [<- He]]. apply kept_exact in He.
  destruct He as (p & v & _ & _ & ->). unfold deconflict. rewrite <- app_assoc_s. apply starts_with_app.
Qed.

Lemma lookup_outside_kept : forall dir S p, starts_with (dir ++ "/")%string p = false ->
  lookup p (by_name (mains S ++ kept dir S)) = lookup p (by_name (mains S)).
Proof.
  intros dir S p Hd. rewrite !lookup_by_name, rev_app_distr, lookup_app.
  rewrite lookup_notin; [reflexivity|]. rewrite map_rev. intros Hin. apply in_rev in Hin. apply kept_names in Hin. congruence.
Qed.

Lemma single_split_kept : forall l s dir, (forall v, In v l -> v_split v = s) -> kept dir (to_set ord_ver l) = [].
Proof.
  intros l s dir Hs. destruct (kept dir (to_set ord_ver l)) as [|e k] eqn:E; [reflexivity|]. exfalso.
  assert (He : In e (kept dir (to_set ord_ver l))) by (rewrite E; now left).
  apply kept_exact in He. destruct He as (p & v & _ & Hv & _).
  (* a conflict and the winner would both be versions of the one split *)
  apply conflicts_exact in Hv. destruct Hv as (w & Hw & Hin & Hne & _). apply Hne.
  apply winner_spec in Hw. apply split_latests_sub in Hin. destruct Hin as [Hv _]. destruct Hw as [Hw _].
  apply to_set_In in Hv. apply to_set_In in Hw. now rewrite (Hs _ Hv), (Hs _ Hw).
Qed.

Lemma winner_unique_path : forall l v, NoDup (map v_path l) -> In v l -> winner (v_path v) (to_set ord_ver l) = Some v.
Proof.
  intros l v Hnd Hv. destruct (winner (v_path v) (to_set ord_ver l)) as [w|] eqn:E.
  - apply winner_spec in E. destruct E as (Hw & Hp & _). apply to_set_In in Hw.
    now rewrite (NoDup_map_inj v_path l w v Hnd Hw Hv Hp).
  - apply winner_none in E. destruct E. apply paths_of_In. exists v. split; [now apply to_set_In|reflexivity].
Qed.
