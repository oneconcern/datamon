(* C18: the reference tree the mutable mount is compared with.  The tree as a partial map from
   paths (get against remove, put and membership); what an operation can change at all; paths
   (parent, prefix); then well-formedness - no path twice, no node at the root path, every node's
   parent a directory of the tree - which every operation preserves. *)
From Coq Require Import List String Bool Arith Lia.
From DM Require Import Base.ListFacts Model.Mount Model.MutFs Proofs.MountProofs.
Import ListNotations.
Open Scope list_scope.

Lemma path_eqb_eq : forall a b, path_eqb a b = true <-> a = b.
Proof.
  induction a as [|x a IH]; intros [|y b]; cbn; try (split; [discriminate|discriminate]); [tauto|].
  rewrite andb_true_iff, String.eqb_eq, IH. split; [intros [-> ->]; reflexivity|intros H; inversion H; auto].
Qed.

Lemma path_eqb_refl : forall a, path_eqb a a = true.
Proof. intros. now apply path_eqb_eq. Qed.

Lemma path_eqb_neq : forall a b, a <> b -> path_eqb a b = false.
Proof. intros a b H. destruct (path_eqb a b) eqn:E; [apply path_eqb_eq in E; contradiction|reflexivity]. Qed.

Lemma find_remove_other : forall p q t, p <> q ->
  find (fun e : list string * node => path_eqb (fst e) q) (remove p t) = find (fun e => path_eqb (fst e) q) t.
Proof.
  intros p q t H. unfold remove. induction t as [|[a n] t IH]; cbn; [reflexivity|].
  destruct (path_eqb a p) eqn:E; cbn.
  - apply path_eqb_eq in E. subst a. now rewrite (path_eqb_neq p q H).
  - destruct (path_eqb a q); [reflexivity|exact IH].
Qed.

Lemma find_remove_same : forall p t, find (fun e : list string * node => path_eqb (fst e) p) (remove p t) = None.
Proof.
  intros p t. unfold remove. induction t as [|[a n] t IH]; cbn; [reflexivity|].
  destruct (path_eqb a p) eqn:E; cbn; [exact IH|]. now rewrite E.
Qed.

Lemma get_remove_same : forall p t, p <> [] -> get p (remove p t) = None.
Proof. intros [|x p] t Hp; [congruence|]. unfold get. now rewrite find_remove_same. Qed.

Lemma get_remove_other : forall p q t, p <> q -> get q (remove p t) = get q t.
Proof. intros p [|y q] t H; [reflexivity|]. unfold get. now rewrite find_remove_other. Qed.

Lemma get_put_same : forall p n t, p <> [] -> get p (put p n t) = Some n.
Proof.
  intros [|x p] n t Hp; [congruence|]. unfold get, put.
  rewrite find_app, find_remove_same. cbn. now rewrite String.eqb_refl, path_eqb_refl.
Qed.

Lemma get_put_other : forall p q n t, p <> q -> get q (put p n t) = get q t.
Proof.
  intros p [|y q] n t H; [reflexivity|]. unfold get, put.
  rewrite find_app, find_remove_other by exact H.
  destruct (find _ t); [reflexivity|]. cbn [find fst]. now rewrite (path_eqb_neq p (y :: q) H).
Qed.

Lemma get_In : forall t p n, NoDup (map fst t) -> p <> [] -> (get p t = Some n <-> In (p, n) t).
Proof.
  intros t p n Hnd Hp. unfold get. destruct p as [|x p]; [congruence|].
  destruct (find (fun e => path_eqb (fst e) (x :: p)) t) as [[a m]|] eqn:E; cbn [option_map snd].
  - apply find_some in E. destruct E as [Hin E]. apply path_eqb_eq in E. cbn in E. subst a.
    split; [intros H; inversion H; now subst|intros H; f_equal; eapply NoDup_fst_fun; eauto].
  - split; [discriminate|]. intros H. apply (find_none _ _ E) in H. now rewrite path_eqb_refl in H.
Qed.

Lemma get_none_notin : forall t p, p <> [] -> get p t = None -> ~ In p (map fst t).
Proof.
  intros t [|x p] Hp H Hin; [congruence|]. unfold get in H.
  apply in_map_iff in Hin. destruct Hin as [e [E Hin]].
  destruct (find (fun e => path_eqb (fst e) (x :: p)) t) eqn:F; [discriminate|].
  apply (find_none _ _ F) in Hin. now rewrite E, path_eqb_refl in Hin.
Qed.

(* get d t = Some NDir reads "d is a directory of the tree", the root included *)
Lemma dir_In : forall t d, NoDup (map fst t) -> (get d t = Some NDir <-> d = [] \/ In (d, NDir) t).
Proof.
  intros t d Hnd. destruct (list_eq_dec string_dec d []) as [->|Hd]; [split; [now left|reflexivity]|].
  rewrite get_In by assumption. tauto.
Qed.

Lemma in_remove : forall p t e, In e (remove p t) <-> In e t /\ fst e <> p.
Proof.
  intros p t e. unfold remove. rewrite filter_In. split; intros [H1 H2]; split; auto.
  - intros E. rewrite E, path_eqb_refl in H2. discriminate.
  - now rewrite path_eqb_neq.
Qed.

(* every branch of step is written (t, r) or (t', ROk) *)
Lemma step_shape : forall t o (P : list (list string * node) * fres -> Prop),
  (forall r, P (t, r)) -> (forall t', P (t', ROk)) -> P (step t o).
Proof.
  intros t o P Hsame Hok. destruct o; cbn [step];
    repeat match goal with |- context [match ?x with _ => _ end] => case x; intros end; auto.
Qed.

Lemma zeros_length : forall n, List.length (zeros n) = n.
Proof. induction n; cbn; auto. Qed.

Lemma parent_app_one : forall d n, parent (d ++ [n]) = d.
Proof. intros. unfold parent. apply removelast_last. Qed.

Lemma nonempty_split : forall (p : list string), p <> [] -> p = parent p ++ [base p].
Proof. intros p H. unfold parent, base. now apply app_removelast_last. Qed.

Lemma parent_app : forall (a r : list string), r <> [] -> parent (a ++ r) = a ++ parent r.
Proof. intros a r H. unfold parent. now apply removelast_app. Qed.

Lemma parent_neq : forall (p : list string), p <> [] -> parent p <> p.
Proof.
  intros p Hp E. apply (f_equal (@List.length string)) in E. rewrite (nonempty_split p Hp) in E at 2.
  rewrite app_length in E. cbn in E. lia.
Qed.

Lemma is_prefix_refl : forall p, is_prefix p p = true.
Proof. intros p. apply is_prefix_app. exists []. now rewrite app_nil_r. Qed.

Lemma is_prefix_app_l : forall (p r : list string), is_prefix p (p ++ r) = true.
Proof. intros. apply is_prefix_app. now exists r. Qed.

Lemma is_prefix_parent : forall p x, x <> [] -> is_prefix p (parent x) = true -> is_prefix p x = true.
Proof.
  intros p x Hx H. apply is_prefix_app in H. destruct H as [r E]. apply is_prefix_app. exists (r ++ [base x]).
  now rewrite app_assoc, <- E, <- nonempty_split.
Qed.

Definition wf (t : list (list string * node)) : Prop :=
  NoDup (map fst t) /\
  (forall e, In e t -> fst e <> []) /\
  (forall e, In e t -> parent (fst e) = [] \/ In (parent (fst e), NDir) t).

Lemma ancestor_err_none : forall fuel k p t, ancestor_err fuel k p t = None -> List.length p <= k + fuel ->
  forall j, k <= j -> j < List.length p -> get (firstn j p) t = Some NDir.
Proof.
  induction fuel as [|f IH]; intros k p t H Hf j Hk Hj; [lia|]. cbn [ancestor_err] in H.
  destruct (Nat.leb_spec (List.length p) k); [lia|].
  destruct (get (firstn k p) t) as [[|d]|] eqn:Eg; try discriminate.
  destruct (Nat.eq_dec j k) as [->|Hne]; [exact Eg|]. apply (IH (S k) p t H); lia.
Qed.

Lemma parent_check_dir : forall p t, parent_check p t = None -> p <> [] /\ get (parent p) t = Some NDir.
Proof.
  intros p t H. unfold parent_check in H. destruct p as [|x p]; [discriminate|]. split; [discriminate|].
  unfold parent. rewrite removelast_firstn_len. destruct p as [|y p]; [reflexivity|].
  apply (ancestor_err_none _ 1 _ t H); cbn [List.length Nat.pred]; lia.
Qed.

Lemma wf_put_new : forall t p n, wf t -> p <> [] -> get p t = None -> get (parent p) t = Some NDir -> wf (put p n t).
Proof.
  intros t p n [Hnd [Hne Hpar]] Hp Hg Hpp. pose proof (get_none_notin t p Hp Hg) as Hnotin. unfold put.
  assert (Hrem : remove p t = t).
  { apply filter_id. intros e He. apply negb_true_iff, path_eqb_neq. intros E. apply Hnotin. rewrite <- E. now apply in_map. }
  rewrite Hrem. split; [|split].
  - rewrite map_app. now apply NoDup_snoc.
  - intros e He. apply in_app_or in He. destruct He as [He|[<-|[]]]; [now apply Hne|exact Hp].
  - assert (Hin : forall d, d = [] \/ In (d, NDir) t -> d = [] \/ In (d, NDir) (t ++ [(p, n)])).
    { intros d [H|H]; [now left|right; apply in_or_app; now left]. }
    intros e He. apply Hin. apply in_app_or in He. destruct He as [He|[<-|[]]]; [now apply Hpar|now apply dir_In].
Qed.

Lemma wf_create_like : forall t p n, wf t -> parent_check p t = None -> get p t = None -> wf (put p n t).
Proof. intros t p n W Hc Hg. destruct (parent_check_dir p t Hc). now apply wf_put_new. Qed.

Lemma wf_set_file : forall t p d0 d, wf t -> get p t = Some (NFile d0) -> p <> [] ->
  wf (map (fun e => if path_eqb (fst e) p then (p, NFile d) else e) t).
Proof.
  intros t p d0 d [Hnd [Hne Hpar]] Hg Hp. apply get_In in Hg; [|exact Hnd|exact Hp].
  assert (Hfst : forall e : list string * node, fst (if path_eqb (fst e) p then (p, NFile d) else e) = fst e).
  { intros e. destruct (path_eqb (fst e) p) eqn:E; [apply path_eqb_eq in E; now rewrite E|reflexivity]. }
  split; [|split].
  - rewrite map_map, (map_ext _ fst Hfst). exact Hnd.
  - intros e He. apply in_map_iff in He. destruct He as [e0 [<- He0]]. rewrite Hfst. now apply Hne.
  - intros e He. apply in_map_iff in He. destruct He as [e0 [<- He0]]. rewrite Hfst.
    destruct (Hpar e0 He0) as [H|H]; [now left|right].
    apply in_map_iff. exists (parent (fst e0), NDir). split; [|exact H]. cbn [fst].
    (* a directory is not the file p: paths are unique *)
    rewrite path_eqb_neq; [reflexivity|]. intros E. rewrite E in H. discriminate (NoDup_fst_fun t p _ _ Hnd H Hg).
Qed.

Lemma wf_remove : forall t p, wf t -> (forall e, In e t -> parent (fst e) <> p) -> wf (remove p t).
Proof.
  intros t p [Hnd [Hne Hpar]] Hleaf. split; [|split].
  - now apply NoDup_map_filter.
  - intros e He. apply in_remove in He. apply Hne. tauto.
  - intros e He. apply in_remove in He. destruct He as [He Hep]. destruct (Hpar e He) as [H|H]; [now left|right].
    apply in_remove. split; [exact H|]. now apply Hleaf.
Qed.

Lemma no_children_leaf : forall t p, (forall e, In e t -> fst e <> []) -> has_children p t = false ->
  forall e, In e t -> parent (fst e) <> p.
Proof.
  intros t p Hne H e He E. unfold has_children in H.
  assert (existsb (fun e => strictly_below p (fst e)) t = true); [|congruence].
  apply existsb_exists. exists e. split; [exact He|]. unfold strictly_below.
  rewrite (nonempty_split (fst e) (Hne e He)), E, is_prefix_app_l, app_length. apply Nat.ltb_lt. cbn. lia.
Qed.

Lemma file_leaf : forall t p d, wf t -> In (p, NFile d) t -> forall e, In e t -> parent (fst e) <> p.
Proof.
  intros t p d [Hnd [Hne Hpar]] Hin e He E. destruct (Hpar e He) as [H|H]; rewrite E in H.
  - now apply (Hne _ Hin).
  - discriminate (NoDup_fst_fun t p _ _ Hnd H Hin).
Qed.

Lemma ancestors_present : forall t, wf t -> forall (r a : list string) m, r <> [] -> In (a ++ r, m) t -> get a t = Some NDir.
Proof.
  intros t [Hnd [Hne Hpar]]. induction r as [|z r IH] using rev_ind; intros a m Hr Hin; [congruence|].
  pose proof (Hpar _ Hin) as H. cbn [fst] in H. rewrite app_assoc, parent_app_one in H.
  destruct r as [|y r]; [rewrite app_nil_r in H; now apply dir_In|].
  destruct H as [H|H]; [destruct a; discriminate|]. now apply (IH a NDir).
Qed.

Lemma free_when_absent : forall t q, wf t -> get q t = None -> forall e, In e t -> is_prefix q (fst e) = false.
Proof.
  intros t q W Hg [x m] He. cbn [fst]. destruct (is_prefix q x) eqn:P; [exfalso|reflexivity].
  apply is_prefix_app in P. destruct P as [r ->]. destruct r as [|y r].
  - rewrite app_nil_r in He. destruct q as [|z q]; [discriminate|].
    apply (get_none_notin t (z :: q)); [discriminate|exact Hg|]. apply (in_map fst _ _ He).
  - rewrite (ancestors_present t W (y :: r) q m) in Hg by (discriminate || exact He). discriminate.
Qed.

(* the function `moved` of step's rename, by conversion *)
Definition mv (p q : list string) (e : list string * node) : list string * node :=
  if is_prefix p (fst e) then (move_path p q (fst e), snd e) else e.

Lemma mv_below : forall p q r n, mv p q (p ++ r, n) = (q ++ r, n).
Proof. intros. unfold mv, move_path. cbn [fst snd]. now rewrite is_prefix_app_l, skipn_app_exact. Qed.

Lemma mv_other : forall p q e, is_prefix p (fst e) = false -> mv p q e = e.
Proof. intros p q e H. unfold mv. now rewrite H. Qed.

Lemma mv_cases : forall p q e,
  (exists r, fst e = p ++ r /\ mv p q e = (q ++ r, snd e)) \/ (is_prefix p (fst e) = false /\ mv p q e = e).
Proof.
  intros p q [x n]. cbn [fst snd]. destruct (is_prefix p x) eqn:P; [left|right; split; [reflexivity|now apply mv_other]].
  apply is_prefix_app in P. destruct P as [r ->]. exists r. split; [reflexivity|apply mv_below].
Qed.

(* the heart of it: moving the subtree at p to a name q that is not in the tree *)
Lemma wf_move : forall t p q n, wf t -> In (p, n) t -> get q t = None -> is_prefix p q = false ->
  get (parent q) t = Some NDir -> wf (map (mv p q) t).
Proof.
  intros t p q n W Hpin Hq Hpq Hqpar. pose proof W as [Hnd [Hne Hpar]].
  pose proof (free_when_absent t q W Hq) as Hfree.
  assert (Hp : p <> []) by exact (Hne _ Hpin).
  assert (Hq0 : q <> []) by (intros ->; discriminate).
  (* a directory that is not below p stays where it is *)
  assert (Hstay : forall d, d = [] \/ In (d, NDir) t -> is_prefix p d = false -> d = [] \/ In (d, NDir) (map (mv p q) t)).
  { intros d [H|H] P; [now left|right]. rewrite <- (mv_other p q (d, NDir) P). now apply in_map. }
  split; [|split].
  - (* no path twice: what moves lands at or below q, where nothing was *)
    rewrite map_map. apply (NoDup_map_rekey (fun e => fst (mv p q e)) fst t Hnd).
    assert (Hcross : forall r b, In b t -> q ++ r <> fst b).
    { intros r b Hb E. specialize (Hfree b Hb). rewrite <- E, is_prefix_app_l in Hfree. discriminate. }
    intros a b Ha Hb E.
    destruct (mv_cases p q a) as [[ra [Ea Ma]]|[_ Ma]]; destruct (mv_cases p q b) as [[rb [Eb Mb]]|[_ Mb]];
      rewrite Ma, Mb in E.
    + apply app_inv_head in E. congruence.
    + now apply Hcross in E.
    + symmetry in E. now apply Hcross in E.
    + exact E.
  - (* no node at the root path *)
    intros e He. apply in_map_iff in He. destruct He as [e0 [<- He0]].
    destruct (mv_cases p q e0) as [[r [_ M]]|[_ M]]; rewrite M; [|now apply Hne].
    intros E. apply app_eq_nil in E. tauto.
  - (* every parent is a directory still: it stayed, or moved along *)
    intros e He. apply in_map_iff in He. destruct He as [e0 [<- He0]].
    destruct (mv_cases p q e0) as [[r [E0 M]]|[P M]]; rewrite M; cbn [fst].
    + destruct r as [|y r].
      * (* the moved node itself hangs under the parent of q, which is not below p *)
        rewrite app_nil_r. apply Hstay; [now apply dir_In|].
        destruct (is_prefix p (parent q)) eqn:E; [|reflexivity]. now rewrite (is_prefix_parent p q Hq0 E) in Hpq.
      * (* below it: the parent moves along *)
        right. rewrite parent_app by discriminate.
        destruct (Hpar e0 He0) as [H|H]; rewrite E0, parent_app in H by discriminate.
        -- apply app_eq_nil in H. tauto.
        -- rewrite <- (mv_below p q _ NDir). now apply in_map.
    + apply Hstay; [now apply Hpar|].
      destruct (is_prefix p (parent (fst e0))) eqn:E; [|reflexivity]. now rewrite (is_prefix_parent p _ (Hne e0 He0) E) in P.
Qed.

(* rename of p (holding n) onto q once whatever was at q, a leaf, is out of the way *)
Lemma wf_move_over : forall t p q n, wf t -> get p t = Some n -> p <> [] -> p <> q -> is_prefix p q = false ->
  parent_check q t = None -> (forall e, In e t -> parent (fst e) <> q) -> wf (map (mv p q) (remove q t)).
Proof.
  intros t p q n W Hp Hp0 Hpq Hpre Hc Hleaf. destruct (parent_check_dir q t Hc) as [Hq0 Hqpar].
  apply (wf_move _ p q n).
  - now apply wf_remove.
  - apply in_remove. split; [apply get_In; [apply W|exact Hp0|exact Hp]|exact Hpq].
  - now apply get_remove_same.
  - exact Hpre.
  - rewrite get_remove_other; [exact Hqpar|]. intros E. now apply (parent_neq q).
Qed.

(* case_eq, not destruct: the goal carries the whole body of step, and destruct pays for it twice *)
Theorem step_wf : forall t o, wf t -> wf (fst (step t o)).
Proof.
  intros t o W. pose proof W as [Hnd [Hne Hpar]]. destruct o; cbn [step].
  - (* create *) case_eq (parent_check p t); [intros; exact W|]. intros Ec. case_eq (get p t); [intros; exact W|]. intros Eg.
    exact (wf_create_like t p _ W Ec Eg).
  - (* mkdir *) case_eq (parent_check p t); [intros; exact W|]. intros Ec. case_eq (get p t); [intros; exact W|]. intros Eg.
    exact (wf_create_like t p _ W Ec Eg).
  - (* write *) case p; [exact W|]. clear p. intros x p. case_eq (get (x :: p) t); [intros [|old] Eg|intros; exact W]; [exact W|].
    apply (wf_set_file t (x :: p) old _ W Eg). discriminate.
  - (* truncate *) case p; [exact W|]. clear p. intros x p. case_eq (get (x :: p) t); [intros [|old] Eg|intros; exact W]; [exact W|].
    apply (wf_set_file t (x :: p) old _ W Eg). discriminate.
  - (* rename *) case p; [exact W|]. clear p. intros x p. assert (HP : x :: p <> []) by discriminate.
    case_eq (get (x :: p) t); [intros n Egp|intros; exact W].
    case_eq (parent_check q t); [intros e _; case e; exact W|]. intros Ec.
    case_eq (path_eqb (x :: p) q); [intros; exact W|]. intros Epq.
    case_eq (is_prefix (x :: p) q); [intros; exact W|]. intros Epre.
    assert (Hpq : x :: p <> q) by (intros E; rewrite E, path_eqb_refl in Epq; discriminate).
    destruct (parent_check_dir q t Ec) as [Hq Hqpar].
    pose proof (fun Egq => wf_move t (x :: p) q n W (proj1 (get_In t _ n Hnd HP) Egp) Egq Epre Hqpar) as Hfree.
    pose proof (wf_move_over t (x :: p) q n W Egp HP Hpq Epre Ec) as Hover.
    case n; [|intros dp]; (case_eq (get q t); [intros [|dq] Egq|exact Hfree]); try exact W.
    + (* directory over directory *)
      case_eq (has_children q t); [intros; exact W|]. intros Eh. exact (Hover (no_children_leaf t q Hne Eh)).
    + exact (Hover (file_leaf t q dq W (proj1 (get_In t q _ Hnd Hq) Egq))).
  - (* unlink *) case p; [exact W|]. clear p. intros x p. case_eq (get (x :: p) t); [intros [|old] Eg|intros; exact W]; [exact W|].
    apply wf_remove; [exact W|]. apply (file_leaf t (x :: p) old W). apply get_In; [exact Hnd|discriminate|exact Eg].
  - (* rmdir *) case p; [exact W|]. clear p. intros x p. case_eq (get (x :: p) t); [intros [|old] Eg|intros; exact W]; [|exact W].
    case_eq (has_children (x :: p) t); [intros; exact W|]. intros Eh. exact (wf_remove t _ W (no_children_leaf t _ Hne Eh)).
  - case (get p t); [intros [|d]|]; exact W.
  - case (get p t); [intros [|d]|]; exact W.
  - case (get p t); [intros [|d]|]; exact W.
Qed.
