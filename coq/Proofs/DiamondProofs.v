(* C12: the diamond protocol model under every set of actors and every schedule.  What one event
   does to the actors (only the acting one changes) and to the store (it only grows, and each kind
   of descriptor has one writer), and the invariants that follow. *)
From Coq Require Import List Arith.
From DM Require Import Base.ListFacts Model.Diamond.
Open Scope list_scope.

Definition store_eq (a b : dstate) : Prop :=
  d_term a = d_term b /\ d_running a = d_running b /\ d_done a = d_done b /\ d_lists a = d_lists b /\
  d_blists a = d_blists b /\ d_bundles a = d_bundles b.

Lemma set_actor_store : forall i a st, store_eq (set_actor i a st) st.
Proof. intros. unfold store_eq, set_actor. tauto. Qed.

Lemma nth_set_actor : forall i a b st j, nth_error (d_actors st) i = Some b ->
  nth_error (d_actors (set_actor i a st)) j = if Nat.eqb i j then Some a else nth_error (d_actors st) j.
Proof.
  intros i a b st j. unfold set_actor. cbn [d_actors]. generalize (d_actors st) as l. intros l. revert i j.
  induction l as [|x l IH]; intros [|i] [|j] H; cbn in *; try reflexivity; try discriminate H. now apply IH.
Qed.

Lemma nth_set_actor_same : forall i a b st, nth_error (d_actors st) i = Some b -> nth_error (d_actors (set_actor i a st)) i = Some a.
Proof. intros i a b st H. now rewrite (nth_set_actor _ _ _ _ _ H), Nat.eqb_refl. Qed.

Lemma nth_set_actor_other : forall i j a b st, nth_error (d_actors st) i = Some b -> i <> j ->
  nth_error (d_actors (set_actor i a st)) j = nth_error (d_actors st) j.
Proof. intros i j a b st H Hij. rewrite (nth_set_actor _ _ _ _ _ H). now apply Nat.eqb_neq in Hij as ->. Qed.

Lemma run_stable : forall P : dstate -> Prop, (forall e st, P st -> P (apply_event st e)) ->
  forall es st, P st -> P (run es st).
Proof. intros P H es. apply fold_left_inv. intros st e _. apply H. Qed.

(* [step i st] with what slot i holds made a parameter.  The body is taken from [step] itself, to which
   it is convertible; a case analysis of the slot then carries this name, not the sixteen cases. *)
Definition step_of (i : nat) (o : option actor) (st : dstate) : dstate * bool :=
  ltac:(let b := eval cbv beta delta [step] in (step i st) in
        match eval pattern (nth_error (d_actors st) i) in b with ?f _ => exact (f o) end).

Lemma step_eq : forall i st, step i st = step_of i (nth_error (d_actors st) i) st.
Proof. reflexivity. Qed.

(* The cases of [step i st]: one goal for each state of actor i (equation Ea) and each outcome of the
   store access it performs there (equations Et, Ed, Es, Er), with [fst (step i st)] reduced to the
   state the step produces. *)
Ltac step_cases i st :=
  rewrite !step_eq; destruct (nth_error (d_actors st) i) as [[[] ca wa|[] wa|sa ga [] wa]|] eqn:Ea; cbn [step_of fst snd];
  repeat match goal with
         | |- context [match d_term st with _ => _ end] => destruct (d_term st) eqn:Et
         | |- context [match d_done st with _ => _ end] => destruct (d_done st) eqn:Ed
         | |- context [match done_of ?s st with _ => _ end] => destruct (done_of s st) eqn:Es
         | |- context [if existsb ?f ?l then _ else _] => destruct (existsb f l) eqn:Er
         end; cbn [fst snd].

Lemma crash_spec : forall i st, crash i st = st \/
  exists a a', nth_error (d_actors st) i = Some a /\ crash i st = set_actor i a' st /\ next_action a' = None.
Proof.
  intros i st. unfold crash. destruct (nth_error (d_actors st) i) as [a|]; [right; exists a|now left].
  destruct a; eauto.
Qed.

Lemma crash_store : forall i st, store_eq (crash i st) st.
Proof.
  intros i st. destruct (crash_spec i st) as [->|(a & a' & _ & -> & _)]; [unfold store_eq; tauto|apply set_actor_store].
Qed.

Lemma step_frame : forall i st j, i <> j -> nth_error (d_actors (fst (step i st))) j = nth_error (d_actors st) j.
Proof.
  intros i st j H. step_cases i st; first [erewrite nth_set_actor_other; [reflexivity|exact Ea|exact H]|reflexivity].
Qed.

(* an event leaves slot j alone unless it is j's own step or crash *)
Lemma event_slot : forall e st j,
  nth_error (d_actors (apply_event st e)) j = nth_error (d_actors st) j \/ e = EStep j \/ e = ECrash j.
Proof.
  intros [i|i] st j; destruct (Nat.eq_dec i j) as [->|Hne]; auto.
  - left. now apply step_frame.
  - left. cbn [apply_event]. destruct (crash_spec i st) as [->|(a & a' & L & -> & _)]; [reflexivity|exact (nth_set_actor_other _ _ _ _ _ L Hne)].
Qed.

(* What an event does to the store.  The final descriptor of the diamond, once written, stays;
   file lists are only added; the only write of a final split descriptor is by a run at that point,
   refused unless none is recorded for the split; the only write of a bundle descriptor is by a
   commit at that point, of its collection under its own index. *)
Record writes (e : event) (st st' : dstate) : Prop := {
  w_term : forall t, d_term st = Some t -> d_term st' = Some t;
  w_lists : forall p, In p (d_lists st) -> In p (d_lists st');
  w_done : d_done st' = d_done st \/
           exists i s g w, e = EStep i /\ nth_error (d_actors st) i = Some (ASplit s g SWriteSplitDone w) /\
                           done_of s st = None /\ d_done st' = (s, g) :: d_done st;
  w_bundles : d_bundles st' = d_bundles st \/
              exists i c w, e = EStep i /\ nth_error (d_actors st) i = Some (ACommit CWriteBundle c w) /\
                            d_bundles st' = (i, c) :: d_bundles st
}.

(* st' stands for the state after the step so that [step] is analysed once, not once per field *)
Lemma step_writes : forall i st st', fst (step i st) = st' -> writes (EStep i) st st'.
Proof.
  intros i st st'. step_cases i st; intros <-; constructor.
  (* the three lines close, case by case, w_term, then w_lists, then w_done and w_bundles: the field is
     as it was, except in the case of the actor named in the right disjunct *)
  all: try (intros t' Ht; cbn; congruence).
  all: try (intros q Hq; first [exact Hq|now right]).
  all: first [left; reflexivity|left; exact Ed|right; exists i, sa, ga, wa; auto|right; exists i, ca, wa; auto].
Qed.

Lemma event_writes : forall e st, writes e st (apply_event st e).
Proof.
  intros [i|i] st; [now apply step_writes|].
  destruct (crash_store i st) as (Et & _ & Ed & El & _ & Eb). constructor; cbn [apply_event]; rewrite ?Et, ?El; auto.
Qed.

Lemma event_done_stable : forall e st s g, done_of s st = Some g -> done_of s (apply_event st e) = Some g.
Proof.
  intros e st s g H. destruct (w_done _ _ _ (event_writes e st)) as [E|(i & s' & g' & w & _ & _ & Hn & E)];
    unfold done_of in *; rewrite E; [exact H|].
  cbn [find fst]. destruct (Nat.eqb s' s) eqn:Es; [|exact H]. apply Nat.eqb_eq in Es. subst s'. congruence.
Qed.

Lemma event_done_in_stable : forall e st p, In p (d_done st) -> In p (d_done (apply_event st e)).
Proof.
  intros e st p H. destruct (w_done _ _ _ (event_writes e st)) as [->|(i & s & g & w & _ & _ & _ & ->)]; [exact H|now right].
Qed.

(* a commit past its collection holds recorded runs only; a run about to record itself wrote its file lists *)
Definition actor_ok (st : dstate) (a : actor) : Prop :=
  match a with
  | ACommit (CWriteLists | CWriteBundle | CWriteDone) c _ => forall p, In p c -> In p (d_done st)
  | ASplit s g SWriteSplitDone _ => In (s, g) (d_lists st)
  | _ => True
  end.

Record Inv (st : dstate) : Prop := {
  inv_lists : forall p, In p (d_done st) -> In p (d_lists st);
  inv_bundles : forall b srcs p, In (b, srcs) (d_bundles st) -> In p srcs -> In p (d_done st);
  inv_actors : forall i a, nth_error (d_actors st) i = Some a -> actor_ok st a
}.

Lemma actor_ok_mono : forall st st' a, (forall p, In p (d_done st) -> In p (d_done st')) ->
  (forall p, In p (d_lists st) -> In p (d_lists st')) -> actor_ok st a -> actor_ok st' a.
Proof. intros st st' [[] c w| |s g [] w] Hd Hl H; cbn in *; auto. Qed.

(* every step lands where actor_ok asks nothing, or what it asked before *)
Lemma step_actor_ok : forall i st a', (forall a, nth_error (d_actors st) i = Some a -> actor_ok st a) ->
  nth_error (d_actors (fst (step i st))) i = Some a' -> actor_ok (fst (step i st)) a'.
Proof.
  intros i st a' Hok.
  step_cases i st; intros Ha'; erewrite ?nth_set_actor_same, ?Ea in Ha' by exact Ea; try discriminate Ha';
    injection Ha' as <-; try specialize (Hok _ eq_refl); cbn in *; auto.
  (* the collection step: what is collected is what is recorded *) now rewrite Ed.
Qed.

Theorem event_inv : forall e st, Inv st -> Inv (apply_event st e).
Proof.
  intros e st [I1 I2 I3].
  pose proof (event_done_in_stable e st) as Md. destruct (event_writes e st) as [_ Ml Wd Wb].
  constructor.
  - intros p Hp. apply Ml. destruct Wd as [E|(i & s & g & w & _ & Ha & _ & E)]; rewrite E in Hp; [auto|].
    destruct Hp as [<-|Hp]; [apply (I3 i _ Ha)|auto].
  - intros b srcs p Hb Hp. apply Md. destruct Wb as [E|(i & c & w & _ & Ha & E)]; rewrite E in Hb; [eauto|].
    destruct Hb as [Hb|Hb]; [|eauto]. injection Hb as <- <-. apply (I3 _ _ Ha), Hp.
  - intros j a' Ha'. destruct (event_slot e st j) as [E|[-> | ->]]; cbn [apply_event] in Ha' |- *.
    + rewrite E in Ha'. eapply actor_ok_mono; eauto.
    + apply (step_actor_ok j st a' (I3 j) Ha').
    + (* a crashed actor is finished, of which actor_ok asks nothing *)
      destruct (crash_spec j st) as [E|(a0 & a & L & E & Hfin)]; rewrite E in Ha' |- *; [eauto|].
      rewrite (nth_set_actor_same _ _ _ _ L) in Ha'. injection Ha' as <-.
      destruct a as [[] c w| |s g [] w]; try discriminate; exact I.
Qed.

Definition all_fresh (actors : list actor) : Prop := forall a, In a actors -> next_action a = Some KReady.

Lemma init_inv : forall actors, all_fresh actors -> Inv (init actors).
Proof.
  intros actors H. constructor; try tauto.
  intros i a Ha. apply nth_error_In, H in Ha. destruct a as [[] c w| |s g [] w]; cbn in *; auto; discriminate.
Qed.

(* a commit that is at its first step or finished once the diamond is terminated: it stays so, and
   no bundle appears under its index *)
Definition quiet_commit (i : nat) (st : dstate) : Prop :=
  d_term st <> None /\
  (exists pc c w, nth_error (d_actors st) i = Some (ACommit pc c w) /\ (pc = CReady \/ pc = CFin)) /\
  (forall srcs, ~ In (i, srcs) (d_bundles st)).

Lemma quiet_commit_event : forall e i st, quiet_commit i st -> quiet_commit i (apply_event st e).
Proof.
  intros e i st (Ht & (pc & c & w & Ha & Hpc) & Hb).
  destruct (d_term st) as [t|] eqn:Et; [clear Ht|congruence].
  split; [rewrite (w_term _ _ _ (event_writes e st) t Et); discriminate|split].
  - destruct (event_slot e st i) as [E|[-> | ->]]; cbn [apply_event].
    + rewrite E. exists pc, c, w. auto.
    + (* its own step: refused, or none *)
      rewrite step_eq, Ha. destruct Hpc as [-> | ->]; cbn [step_of]; rewrite ?Et; cbn [fst].
      * rewrite (nth_set_actor_same _ _ _ _ Ha). exists CFin, c, w. auto.
      * exists CFin, c, w. auto.
    + unfold crash. rewrite Ha, (nth_set_actor_same _ _ _ _ Ha). exists CFin, c, w. auto.
  - (* a bundle under index i is written by commit i only, and not at these points *)
    intros srcs Hin. destruct (w_bundles _ _ _ (event_writes e st)) as [E|(j & c' & w' & _ & Hj & E)]; rewrite E in Hin;
      [now apply (Hb srcs)|].
    destruct Hin as [Hin|Hin]; [|now apply (Hb srcs)]. injection Hin as -> _. rewrite Ha in Hj. injection Hj as -> _ _.
    destruct Hpc; discriminate.
Qed.
