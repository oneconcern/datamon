(* Proofs about Model/RepoOps.v.  The reference store read as a finite map, and the one relation
   (extends) through which "what exists is never altered" is said; where the keys of bundles, labels
   and repositories lie with respect to each other; setting a label, deleting bundles and deleting a
   repository touch only keys of their own. *)
From Coq Require Import List String NArith Bool Arith Lia.
From DM Require Import Base.ListFacts Base.Str Gen.Paths Model.PathsCheck Model.Meta Model.RepoOps Proofs.PathsProofs.
Open Scope list_scope.

(* mget and mremove are ListFacts.aget and aremove at String.eqb *)
Lemma mget_mremove : forall k k' s, mget k' (mremove k s) = if String.eqb k' k then None else mget k' s.
Proof. exact (aget_aremove String.eqb String.eqb_eq). Qed.

Lemma string_eqb_other : forall k k' : string, k <> k' -> String.eqb k' k = false.
Proof. intros k k' H. apply String.eqb_neq. congruence. Qed.

Lemma snd_mdelete : forall k s, snd (mdelete k s) = mremove k s.
Proof.
  intros. unfold mdelete, mhas. destruct (mget k s) eqn:E; [reflexivity|].
  symmetry. exact (aremove_absent String.eqb k s E).
Qed.

Lemma snd_mput_over : forall k v s, snd (mput k v false s) = (k, v) :: mremove k s.
Proof.
  intros. unfold mput. destruct (mget k s) eqn:E; cbn [snd]; [reflexivity|].
  f_equal. symmetry. exact (aremove_absent String.eqb k s E).
Qed.

Lemma mput_excl : forall k v s, mput k v true s = if mhas k s then (PExists, s) else (POk, (k, v) :: s).
Proof. intros. unfold mput, mhas. now destruct (mget k s). Qed.

Lemma mget_mdelete_same : forall k s, mget k (snd (mdelete k s)) = None.
Proof. intros. now rewrite snd_mdelete, mget_mremove, String.eqb_refl. Qed.

Lemma mget_mdelete_other : forall k s k', k <> k' -> mget k' (snd (mdelete k s)) = mget k' s.
Proof. intros k s k' H. now rewrite snd_mdelete, mget_mremove, (string_eqb_other k k' H). Qed.

Lemma mget_mdelete_none : forall k k' s, mget k s = None -> mget k (snd (mdelete k' s)) = None.
Proof. intros k k' s H. rewrite snd_mdelete, mget_mremove. now destruct (String.eqb k k'). Qed.

Lemma mget_mput_same : forall k v s, mget k (snd (mput k v false s)) = Some v.
Proof. intros. rewrite snd_mput_over. cbn [mget]. now rewrite String.eqb_refl. Qed.

Lemma mget_mput_other : forall k v e s k', k <> k' -> mget k' (snd (mput k v e s)) = mget k' s.
Proof.
  intros k v e s k' H. destruct e.
  - rewrite mput_excl. destruct (mhas k s); cbn [snd mget]; [reflexivity|]. now rewrite (string_eqb_other k k' H).
  - rewrite snd_mput_over. cbn [mget]. now rewrite (string_eqb_other k k' H), mget_mremove, (string_eqb_other k k' H).
Qed.

Lemma mget_fold_frame : forall {A} (f : mstore -> A -> mstore) k l,
  (forall a m, In a l -> mget k (f m a) = mget k m) -> forall m, mget k (fold_left f l m) = mget k m.
Proof.
  intros A f k l H m. apply (fold_left_inv (fun m' => mget k m' = mget k m)); [|reflexivity].
  intros m' a Ha Hm'. now rewrite H.
Qed.

Definition extends (m m' : mstore) : Prop := forall k v, mget k m = Some v -> mget k m' = Some v.

Lemma extends_refl : forall m, extends m m.
Proof. intros m k v H. exact H. Qed.

Lemma extends_trans : forall m1 m2 m3, extends m1 m2 -> extends m2 m3 -> extends m1 m3.
Proof. intros m1 m2 m3 H1 H2 k v H. apply H2, H1, H. Qed.

Lemma extends_mput_excl : forall k v m, extends m (snd (mput k v true m)).
Proof.
  intros k v m k' v' H. rewrite mput_excl. unfold mhas. destruct (mget k m) eqn:E; cbn [snd mget]; [exact H|].
  destruct (String.eqb_spec k' k) as [->|_]; [congruence|exact H].
Qed.

Local Notation fl r id j := (GetArchivePathToBundleFileList r id (N.of_nat j)).

Lemma N_of_nat_S : forall i, (N.of_nat i + 1)%N = N.of_nat (S i).
Proof. intros. lia. Qed.

Lemma label_key_inj : forall r n r' n', noslash r = true -> noslash n = true -> noslash r' = true -> noslash n' = true ->
  GetArchivePathToLabel r n = GetArchivePathToLabel r' n' -> r = r' /\ n = n'.
Proof.
  intros r n r' n' Hr Hn Hr' Hn' E.
  apply (build_inj (BLabel r n) (BLabel r' n')) in E; cbn [valid_kind]; [|now rewrite Hr, Hn|now rewrite Hr', Hn'].
  now inversion E.
Qed.

Lemma filelist_not_descriptor : forall r id j r' id', noslash r = true -> noslash id = true ->
  noslash r' = true -> noslash id' = true ->
  GetArchivePathToBundleFileList r id j <> GetArchivePathToBundle r' id'.
Proof.
  intros r id j r' id' Hr Hid Hr' Hid' E.
  apply (build_inj (BBundleFL r id j) (BBundle r' id')) in E; cbn [valid_kind];
    [discriminate|now rewrite Hr, Hid|now rewrite Hr', Hid'].
Qed.

(* within one bundle no premise is needed: the shared segments cancel *)
Lemma filelist_not_own_descriptor : forall r id j, GetArchivePathToBundleFileList r id j <> GetArchivePathToBundle r id.
Proof.
  intros r id j H. unfold GetArchivePathToBundleFileList, GetArchivePathToBundle in H.
  do 5 apply app_inv_head_s in H. discriminate H.
Qed.

Lemma filelist_key_inj : forall r id i j, GetArchivePathToBundleFileList r id i = GetArchivePathToBundleFileList r id j -> i = j.
Proof.
  intros r id i j H. unfold GetArchivePathToBundleFileList in H.
  (* no noslash premises, so not through build_inj: the two keys share the five segments
     bundles/ r / id / ; what is left are the file names *)
  do 5 (apply app_inv_head_s in H). apply index_name_inj. exact H.
Qed.

(* the directory bundles/<repo>/<id>/ *)
Definition under_bundle (r id k : string) : bool := starts_with (GetArchivePathPrefixToBundles r ++ id ++ "/")%string k.

Lemma filelist_under : forall r id i, under_bundle r id (GetArchivePathToBundleFileList r id i) = true.
Proof.
  intros. unfold under_bundle, GetArchivePathToBundleFileList, GetArchivePathPrefixToBundles.
  rewrite !app_assoc_s. rewrite !starts_with_app_l. reflexivity.
Qed.

Lemma descriptor_under : forall r id, under_bundle r id (GetArchivePathToBundle r id) = true.
Proof.
  intros. unfold under_bundle, GetArchivePathToBundle, GetArchivePathPrefixToBundles.
  rewrite !app_assoc_s. rewrite !starts_with_app_l. reflexivity.
Qed.

Lemma other_bundle_not_under : forall r id id' k, noslash id = true -> noslash id' = true -> id <> id' ->
  under_bundle r id' k = true -> under_bundle r id k = false.
Proof.
  intros r id id' k Hi Hi' Hne H. destruct (under_bundle r id k) eqn:E0; [|reflexivity].
  destruct Hne. exact (dir_unique _ id id' k Hi Hi' E0 H).
Qed.

Lemma other_repo_not_under : forall r r' id id' k, noslash r = true -> noslash r' = true -> r <> r' ->
  under_bundle r' id' k = true -> under_bundle r id k = false.
Proof.
  intros r r' id id' k Hr Hr' Hne H. destruct (under_bundle r id k) eqn:E0; [|reflexivity]. destruct Hne.
  unfold under_bundle, GetArchivePathPrefixToBundles in *.
  (* both say that k starts with bundles/<repo>/ *)
  rewrite <- !app_assoc_s in H, E0. do 2 apply starts_with_app_weaken in H. do 2 apply starts_with_app_weaken in E0.
  rewrite !app_assoc_s in H, E0. exact (dir_unique _ r r' k Hr Hr' E0 H).
Qed.

Lemma filelist_other_repo : forall r r' id i j, noslash r = true -> noslash r' = true -> r <> r' ->
  GetArchivePathToBundleFileList r id i <> GetArchivePathToBundleFileList r' id j.
Proof.
  intros r r' id i j Hr Hr' Hne E. pose proof (filelist_under r id i) as U. rewrite E in U.
  rewrite (other_repo_not_under r r' id id _ Hr Hr' Hne (filelist_under r' id j)) in U. discriminate.
Qed.

Lemma under_not_repo_descriptor : forall r id k r0, under_bundle r id k = true -> k <> GetArchivePathToRepoDescriptor r0.
Proof.
  intros r id k r0 H E. subst k.
  unfold under_bundle, GetArchivePathPrefixToBundles, GetArchivePathToRepoDescriptor, getArchivePathToBundles in H.
  discriminate.
Qed.

Theorem set_label_frame : forall r n b w,
  w_meta (snd (set_label r n b w)) = w_meta w /\
  forall k, k <> GetArchivePathToLabel r n -> mget k (w_vmeta (snd (set_label r n b w))) = mget k (w_vmeta w).
Proof.
  intros r n b w. unfold set_label.
  destruct (negb (repo_exists r w) || negb (label_elem_ok n) || String.eqb b EmptyString); [auto|].
  split; [reflexivity|]. intros k Hk. apply mget_mput_other. congruence.
Qed.

Lemma delete_until_fail_frame : forall fuel r id i m k, under_bundle r id k = false ->
  mget k (delete_until_fail fuel r id i m) = mget k m.
Proof.
  induction fuel as [|f IH]; intros r id i m k Hk; cbn [delete_until_fail]; [reflexivity|].
  pose proof (mget_mdelete_other (GetArchivePathToBundleFileList r id i) m k) as H.
  destruct (mdelete (GetArchivePathToBundleFileList r id i) m) as [[|] m']; [|reflexivity].
  rewrite IH by exact Hk. apply H. intros Eq. rewrite <- Eq, filelist_under in Hk. discriminate.
Qed.

(* the loop over the file lists from i on touches their keys only *)
Lemma delete_n_frame : forall n r id i m k,
  (forall j, i <= j -> k <> fl r id j) -> mget k (delete_n n r id (N.of_nat i) m) = mget k m.
Proof.
  induction n as [|n IH]; intros r id i m k H; [reflexivity|].
  cbn [delete_n]. rewrite N_of_nat_S, IH by (intros j Hj; apply H, Nat.lt_le_incl, Hj).
  apply mget_mdelete_other, not_eq_sym, H, Nat.le_refl.
Qed.

Theorem delete_bundle_frame : forall r id m k, under_bundle r id k = false ->
  mget k (delete_bundle_quiet r id m) = mget k m.
Proof.
  intros r id m k Hk. unfold delete_bundle_quiet.
  rewrite mget_mdelete_other by (intros Eq; rewrite <- Eq, descriptor_under in Hk; discriminate).
  destruct (N.eqb _ 0); [now apply delete_until_fail_frame|].
  apply (delete_n_frame _ r id 0). intros j _ Eq. rewrite Eq, filelist_under in Hk. discriminate.
Qed.

Lemma delete_bundles_frame : forall ids r m k, (forall id, In id ids -> under_bundle r id k = false) ->
  mget k (fold_left (fun m id => delete_bundle_quiet r id m) ids m) = mget k m.
Proof. intros ids r m k H. apply mget_fold_frame. intros id m' Hid. now apply delete_bundle_frame, H. Qed.

Theorem delete_repo_meta_frame : forall r w k,
  (forall id, under_bundle r id k = false) -> k <> GetArchivePathToRepoDescriptor r ->
  mget k (w_meta (snd (delete_repo r w))) = mget k (w_meta w).
Proof.
  intros r w k Hk Hd. unfold delete_repo. destruct (negb (repo_exists r w)); [reflexivity|].
  cbn [snd w_meta]. rewrite mget_mdelete_other by congruence. apply delete_bundles_frame. intros; apply Hk.
Qed.
