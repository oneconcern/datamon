(* The three read styles, each specified once against a store that is faithful to the honest
   leaves: a read that succeeds returned the right bytes, a read that fails met a leaf that is not
   stored, and nothing else happens.  Collision freedom makes every store faithful (soundness on
   a damaged store); a store that holds the object is faithful and has every leaf (round trip). *)
From Coq Require Import List NArith Arith Lia.
From DM Require Import Base.ListFacts Model.Cafs Proofs.CafsStore.
Import ListNotations.

Lemma leaf_read_spec : forall c space o out eof rem,
  leaf_read c space o = (out, eof, rem) ->
  c = out ++ rem /\ (eof = true -> rem = []) /\ length out <= space /\
  (c <> [] -> 0 < space -> 0 < length out).
Proof.
  intros c space o out eof rem Hl. unfold leaf_read in Hl.
  destruct c as [|x c'] eqn:Ec.
  - injection Hl as <- <- <-. cbn. split; [reflexivity|]. split; [reflexivity|]. split; [lia|congruence].
  - rewrite <- Ec in *. destruct (Nat.eqb_spec space 0) as [Es|Es].
    + injection Hl as <- <- <-. cbn. split; [reflexivity|]. split; [discriminate|]. split; lia.
    + set (n := Nat.max 1 (Nat.min (fst o) (Nat.min space (length c)))) in Hl.
      assert (Hn1 : 1 <= n) by apply Nat.le_max_l.
      assert (Hn2 : n <= space).
      { apply Nat.max_lub; [lia|]. etransitivity; [apply Nat.le_min_r|apply Nat.le_min_l]. }
      clearbody n. injection Hl as <- <- <-.
      split; [symmetry; apply firstn_skipn|]. split.
      * destruct (skipn n c); [reflexivity|discriminate].
      * rewrite firstn_length, Ec. cbn [length]. split; lia.
Qed.

Lemma file_get_write_at : forall d f off x,
  file_get (write_at f off d) x =
  if off <=? x then (match nth_error d (x - off) with Some b => Some b | None => file_get f x end)
  else file_get f x.
Proof.
  induction d as [|b d IH]; intros f off x; cbn [write_at].
  - destruct (off <=? x); [now destruct (x - off)|reflexivity].
  - rewrite IH. cbn [file_get]. destruct (lt_eq_lt_dec x off) as [[Hlt| ->]|Hgt].
    + now rewrite (proj2 (Nat.leb_gt (S off) x)), (proj2 (Nat.leb_gt off x)), (proj2 (Nat.eqb_neq x off)) by lia.
    + now rewrite (proj2 (Nat.leb_gt (S off) off)), Nat.eqb_refl, Nat.leb_refl, Nat.sub_diag by lia.
    + rewrite (proj2 (Nat.leb_le (S off) x)), (proj2 (Nat.leb_le off x)), (proj2 (Nat.eqb_neq x off)) by lia.
      now replace (x - off) with (S (x - S off)) by lia.
Qed.

Lemma In_index_from : forall {A} (l : list A) j i x,
  In (i, x) (index_from j l) <-> j <= i /\ nth_error l (i - j) = Some x.
Proof.
  induction l as [|a l IH]; intros j i x; cbn [index_from In].
  - split; [intros []|intros [_ E]; destruct (i - j); discriminate].
  - rewrite IH. destruct (lt_eq_lt_dec i j) as [[Hlt| ->]|Hgt].
    + split; [intros [E|[E _]]; [inversion E|]; lia|intros [E _]; lia].
    + rewrite Nat.sub_diag. cbn [nth_error].
      split; [intros [E|[E _]]; [inversion E; auto|lia]|intros [_ E]; left; congruence].
    + replace (i - j) with (S (i - S j)) by lia.
      split; [intros [E|[_ E]]; [inversion E; lia|split; [lia|exact E]]|intros [_ E]; right; split; [lia|exact E]].
Qed.

(* a window of want bytes over A ++ B is filled from A, and from B if A does not fill it *)
Lemma window_app : forall {X} (acc A B : list X) want,
  acc ++ firstn (want - length acc) (A ++ B) =
  let acc' := acc ++ firstn (want - length acc) A in
  if Nat.eqb (length acc') want then acc' else acc' ++ firstn (want - length acc') B.
Proof.
  intros X acc A B want. cbv zeta. rewrite firstn_app, app_assoc.
  destruct (Nat.le_gt_cases (want - length acc) (length A)) as [Hle|Hgt].
  - rewrite (proj2 (Nat.sub_0_le _ _) Hle), app_nil_r, app_length, firstn_length_le by exact Hle.
    destruct (Nat.eqb_spec (length acc + (want - length acc)) want) as [E|E]; [reflexivity|].
    replace (want - (length acc + (want - length acc))) with 0 by lia. now rewrite app_nil_r.
  - rewrite firstn_all2, app_length, Nat.sub_add_distr by lia.
    now rewrite (proj2 (Nat.eqb_neq _ _)) by lia.
Qed.

Section Readers.
Variable H : N -> N -> N -> bool -> list N -> list N.
Variable L : nat.
Hypothesis Lpos : 0 < L.
Variable s : bstore.
Variable c : list N.
Variable lv : list (list N).
Hypothesis Hlv : split_leaves L c = lv.
Hypothesis Hfaith : faithful H L s lv.

Lemma read_at_loop_spec : forall m i offset want acc, m + i = length lv -> offset <= L ->
  match read_at_loop H L s (length lv) (keys_of_leaves H L i (skipn i lv)) i offset want acc with
  | Ok r => r = acc ++ firstn (want - length acc) (skipn offset (concat (skipn i lv)))
  | Err => ~ stored H L s lv
  | _ => False
  end.
Proof.
  induction m as [|m IH]; intros i offset want acc Hm Ho.
  - rewrite skipn_all2 by lia. cbn. now rewrite skipn_nil, firstn_nil, app_nil_r.
  - destruct (nth_error lv i) as [d|] eqn:Hd; [|apply nth_error_None in Hd; lia].
    rewrite (skipn_nth_error lv i d Hd), keys_of_leaves_cons. cbn [read_at_loop concat].
    destruct (fetch_cases H L Lpos s c lv Hlv Hfaith i d Hd) as [[El Ev]|[Hns Hrej]].
    2:{ destruct (lookup (hkey H L i d) s) as [d'|]; [|exact Hns]. now rewrite (Hrej d' eq_refl). }
    rewrite El, Ev. cbn [negb].
    (* the offset falls inside this leaf: the leaf is full, or there is no next one *)
    assert (Hsk : skipn offset (d ++ concat (skipn (S i) lv)) = skipn offset d ++ concat (skipn (S i) lv)).
    { rewrite skipn_app. f_equal. destruct (leaf_length L Lpos c lv Hlv i d Hd) as [_ Hlast].
      destruct (Nat.eq_dec (length d) L) as [Ed|Ed]; [now replace (offset - length d) with 0 by lia|].
      rewrite (skipn_all2 (n:=S i) lv) by (rewrite (Hlast Ed); lia). apply skipn_nil. }
    rewrite Hsk, window_app. cbv zeta.
    destruct (Nat.eqb (length (acc ++ firstn (want - length acc) (skipn offset d))) want); [reflexivity|].
    apply (IH (S i) 0); lia.
Qed.

(* read_at once the key list has been accepted *)
Lemma read_at_keys_spec : forall off want,
  let ks := keys_of_leaves H L 0 lv in
  match (if Nat.leb (length ks) (off / L) then Ok []
         else read_at_loop H L s (length ks) (skipn (off / L) ks) (off / L) (off mod L) want []) with
  | Ok r => r = firstn want (skipn off c)
  | Err => ~ stored H L s lv
  | _ => False
  end.
Proof.
  intros off want ks. unfold ks. rewrite keys_length.
  pose proof (Nat.div_mod_eq off L) as Hdm. pose proof (Nat.mod_upper_bound off L ltac:(lia)) as Hmod.
  destruct (Nat.leb_spec (length lv) (off / L)) as [Hge|Hlt].
  - pose proof (content_length L Lpos c lv Hlv). rewrite skipn_all2 by nia. now rewrite firstn_nil.
  - rewrite keys_skipn. cbn [Nat.add].
    pose proof (read_at_loop_spec (length lv - off / L) (off / L) (off mod L) want [] ltac:(lia) ltac:(lia)) as Hl.
    cbn [app length] in Hl. rewrite Nat.sub_0_r, (leaves_from L Lpos c lv Hlv), skipn_skipn in Hl.
    now replace (off / L * L + off mod L) with off in Hl by lia.
Qed.

(* reader state st, having delivered D so far, is consistent with the honest leaves lv *)
Definition inv (st : rst) (D : list N) : Prop :=
  let i := r_idx st in
  i <= length lv /\ r_todo st = keys_of_leaves H L i (skipn i lv) /\
  D = concat (firstn i lv) ++ r_leaf st /\
  (r_last st = true <-> i = length lv /\ 0 < length lv) /\
  match r_cur st with
  | None => r_leaf st = []
  | Some rem => exists d, nth_error lv i = Some d /\ lookup (hkey H L i d) s = Some (r_leaf st ++ rem)
  end.

(* what one call may answer *)
Definition good (res : rres) (k : nat) (D : list N) (st' : rst) : Prop :=
  match res with
  | RData a => length a = k /\ inv st' (D ++ a)
  | REof a => D ++ a = c
  | RErr => ~ stored H L s lv
  | _ => False
  end.

(* Every turn ends a leaf or delivers a byte, so fuel above the bytes still wanted plus the leaves
   still to end is enough (read_call gives more than twice that).  The bound is written with sums
   on both sides: over differences lia splits cases and is several times dearer to check. *)
Lemma read_loop_spec : forall fuel st k acc orc D,
  inv st (D ++ acc) -> r_idx st < length lv -> length acc <= k ->
  k + length lv < fuel + length acc + r_idx st ->
  let '(res, st', _) := read_loop H L fuel s (length lv) st k acc orc in good res k D st'.
Proof.
  induction fuel as [|f IH]; intros st k acc orc D (Hin & Htodo & HD & Hlast & Hcur) Hi Hacc Hmu; [lia|].
  cbn [read_loop]. set (i := r_idx st) in *.
  destruct (nth_error lv i) as [d|] eqn:Hd; [|apply nth_error_None in Hd; lia].
  rewrite Htodo, (skipn_nth_error lv i d Hd), keys_of_leaves_cons.
  destruct (match r_cur st with Some c0 => Some c0 | None => lookup (hkey H L i d) s end) as [cur|] eqn:Ec.
  2:{ destruct (r_cur st); [discriminate|]. intros Hst. rewrite (Hst i d Hd) in Ec. discriminate. }
  (* cur is what remains of the blob the store has under the key of leaf i *)
  assert (Hlook : lookup (hkey H L i d) s = Some (r_leaf st ++ cur)).
  { destruct (r_cur st) as [rem|].
    - destruct Hcur as (d0 & Hd0 & Hl). congruence.
    - now rewrite Hcur. }
  destruct (leaf_read cur (k - length acc) (match orc with x :: _ => x | [] => (k, false) end)) as [[out eof] rem'] eqn:Elr.
  destruct (leaf_read_spec _ _ _ _ _ _ Elr) as (Hsplit & Heof & Hspace & Hprog).
  assert (HD' : D ++ acc ++ out = concat (firstn i lv) ++ r_leaf st ++ out)
    by now rewrite app_assoc, HD, <- app_assoc.
  pose proof (app_length acc out) as Hlen. assert (Hle : length (acc ++ out) <= k) by lia.
  destruct eof.
  - (* the leaf stream ended: its bytes are verified against the key *)
    rewrite (Heof eq_refl), app_nil_r in Hsplit. subst cur.
    destruct (fetch_cases H L Lpos s c lv Hlv Hfaith i d Hd) as [[El Ev]|[Hns Hrej]].
    2:{ now rewrite (Hrej _ Hlook). }
    assert (Ed : r_leaf st ++ out = d) by congruence. rewrite Ed, Ev. cbn [negb].
    assert (HS : D ++ acc ++ out = concat (firstn (S i) lv) ++ []).
    { rewrite HD', Ed, (firstn_S_nth_error lv i d Hd), concat_app. cbn. now rewrite !app_nil_r. }
    assert (Hst' : inv {| r_todo := tl (hkey H L i d :: keys_of_leaves H L (S i) (skipn (S i) lv));
                          r_idx := S i; r_cur := None; r_leaf := []; r_last := Nat.eqb (S i) (length lv) |} (D ++ acc ++ out)).
    { unfold inv. cbn [r_idx r_todo r_cur r_leaf r_last tl].
      split; [lia|]. split; [reflexivity|]. split; [exact HS|]. split; [|reflexivity].
      split; [intros E%Nat.eqb_eq; lia|intros [E _]; apply Nat.eqb_eq, E]. }
    destruct (Nat.eqb_spec (S i) (length lv)) as [Elast|Elast].
    + destruct (Nat.eqb_spec (length out) k) as [Ek|Ek]; cbn [good].
      * split; [lia|exact Hst'].
      * rewrite HS, Elast, app_nil_r, firstn_all. apply (leaves_concat L Lpos c lv Hlv).
    + apply IH; [exact Hst'|cbn [r_idx]; lia|exact Hle|cbn [r_idx]; lia].
  - (* more of this leaf remains *)
    assert (Hinv' : inv {| r_todo := hkey H L i d :: keys_of_leaves H L (S i) (skipn (S i) lv); r_idx := i;
                           r_cur := Some rem'; r_leaf := r_leaf st ++ out; r_last := r_last st |} (D ++ acc ++ out)).
    { unfold inv. cbn [r_idx r_todo r_cur r_leaf r_last].
      split; [lia|]. split; [now rewrite (skipn_nth_error lv i d Hd), keys_of_leaves_cons|].
      split; [exact HD'|]. split; [exact Hlast|].
      exists d. split; [exact Hd|]. now rewrite <- app_assoc, <- Hsplit. }
    destruct (Nat.leb_spec k (length (acc ++ out))) as [Hfull|Hmore]; cbn [good].
    + split; [lia|exact Hinv'].
    + apply IH; [exact Hinv'|exact Hi|exact Hle|].
      (* progress: a stream that has not ended delivers at least one byte *)
      assert (0 < length out).
      { apply Hprog; [|lia]. intros ->. cbn in Elr. inversion Elr. }
      cbn [r_idx]. lia.
Qed.

Lemma read_call_spec : forall st k orc D, inv st D ->
  let '(res, st', _) := read_call H L s (length lv) st k orc in good res k D st'.
Proof.
  intros st k orc D Hinv. unfold read_call.
  assert (Hloop : r_idx st < length lv ->
            let '(res, st', _) := read_loop H L (2 * k + 2 * length lv + 4) s (length lv) st k [] orc in good res k D st').
  { intros Hi. apply read_loop_spec; [now rewrite app_nil_r|exact Hi|cbn; lia|lia]. }
  destruct Hinv as (Hin & _ & HD & Hlast & Hcur). destruct (r_cur st) as [rem|].
  - destruct Hcur as (d & Hd & _). assert (Hi : r_idx st < length lv) by (apply nth_error_Some; congruence).
    destruct (Nat.eqb_spec (length lv) 0); [lia|]. now apply Hloop.
  - rewrite Hcur, app_nil_r in HD.
    assert (Hend : r_idx st = length lv -> D ++ [] = c).
    { intros E. rewrite app_nil_r, HD, E, firstn_all. apply (leaves_concat L Lpos c lv Hlv). }
    destruct (r_last st); [apply Hend, Hlast, eq_refl|].
    destruct (Nat.eqb_spec (length lv) 0) as [En|En]; [apply Hend; lia|]. apply Hloop.
    destruct (Nat.eq_dec (r_idx st) (length lv)) as [E|E]; [|lia]. assert (false = true) by (apply Hlast; lia). discriminate.
Qed.

Lemma inv_prefix : forall st D, inv st D -> stored H L s lv -> length D <= length c.
Proof.
  intros st D (Hin & _ & HD & _ & Hcur) Hst.
  rewrite <- (leaves_concat L Lpos c lv Hlv), <- (firstn_skipn (r_idx st) lv), concat_app, HD, !app_length.
  destruct (r_cur st) as [rem|].
  - destruct Hcur as (d & Hd & Hl). rewrite (Hst _ d Hd) in Hl. injection Hl as Hd'.
    rewrite (skipn_nth_error lv _ d Hd), Hd'. cbn [concat]. rewrite !app_length. lia.
  - rewrite Hcur. cbn [length]. lia.
Qed.

(* io.Copy over a faithful store: the content, or an error because a leaf is missing; it runs
   out of calls only if there are no more calls than bytes *)
Lemma read_all_spec : forall bufs st orc D, inv st D ->
  match read_all H L s (length lv) st bufs orc D with
  | Ok r => r = c
  | Err => ~ stored H L s lv
  | Hang => stored H L s lv -> Forall (fun k => 0 < k) bufs -> length bufs <= length c - length D
  | Panic => False
  end.
Proof.
  induction bufs as [|k bufs IH]; intros st orc D Hinv; cbn [read_all]; [cbn; lia|].
  pose proof (read_call_spec st k orc D Hinv) as Hc.
  destruct (read_call H L s (length lv) st k orc) as [[res st'] orc']. destruct res; cbn [good] in Hc; try contradiction; auto.
  destruct Hc as [Hlk Hinv']. specialize (IH st' orc' _ Hinv').
  destruct (read_all H L s (length lv) st' bufs orc' (D ++ d)); auto.
  intros Hst Hpos. apply Forall_cons_iff in Hpos. destruct Hpos as [Hk Hpos].
  pose proof (inv_prefix st' _ Hinv' Hst). specialize (IH Hst Hpos). rewrite app_length in *. cbn [length]. lia.
Qed.

Lemma inv_start : inv {| r_todo := keys_of_leaves H L 0 lv; r_idx := 0; r_cur := None; r_leaf := []; r_last := false |} [].
Proof.
  unfold inv. cbn. repeat split; try discriminate; try apply Nat.le_0_l. intros [<- E]. inversion E.
Qed.

(* f' is f with the content's bytes on the slot of every leaf named in jobs *)
Lemma write_to_at_spec : forall jobs f,
  Forall (fun j => exists d, nth_error lv (fst j) = Some d /\ snd j = hkey H L (fst j) d) jobs ->
  match write_to_at H L s (length lv) jobs f with
  | Ok f' => forall x, file_get f' x =
      if existsb (fun j => Nat.eqb (fst j) (x / L)) jobs
      then (match nth_error c x with Some b => Some b | None => file_get f x end)
      else file_get f x
  | Err => ~ stored H L s lv
  | _ => False
  end.
Proof.
  induction jobs as [|[i k] jobs IH]; intros f Hj; [now cbn|].
  apply Forall_cons_iff in Hj. destruct Hj as [(d & Hd & Hk) Hj]. cbn [fst snd] in Hd, Hk. subst k.
  cbn [write_to_at].
  destruct (fetch_cases H L Lpos s c lv Hlv Hfaith i d Hd) as [[El Ev]|[Hns Hrej]].
  2:{ destruct (lookup (hkey H L i d) s) as [d'|]; [|exact Hns]. now rewrite (Hrej d' eq_refl). }
  rewrite El, Ev. specialize (IH (write_at f (i * L) d) Hj).
  destruct (write_to_at H L s (length lv) jobs (write_at f (i * L) d)) as [f'| | |]; auto.
  intros x. rewrite IH, file_get_write_at. cbn [existsb fst].
  destruct (leaf_length L Lpos c lv Hlv i d Hd) as [Hlen _].
  pose proof (Nat.div_mod_eq x L) as Hdm. pose proof (Nat.mod_upper_bound x L ltac:(lia)) as Hm.
  destruct (Nat.eqb_spec i (x / L)) as [Ei|Ei]; cbn [orb].
  - (* x lies in the slot of leaf i: it has the content's byte if the leaf reaches that far *)
    rewrite <- Ei, Nat.mul_comm in Hdm. rewrite (proj2 (Nat.leb_le (i * L) x)) by lia.
    replace (x - i * L) with (x mod L) by lia. rewrite <- (leaf_byte L Lpos c lv Hlv i d _ Hd Hm), <- Hdm.
    now destruct (existsb _ jobs), (nth_error c x).
  - destruct (Nat.leb_spec (i * L) x) as [Hge|Hlt]; [|reflexivity].
    rewrite (proj2 (nth_error_None d (x - i * L))); [reflexivity|].
    (* x lies in a later slot *)
    destruct (Nat.le_gt_cases (i * L + L) x) as [Hx|Hx]; [lia|].
    exfalso. apply Ei. apply (Nat.div_unique x L i (x - i * L)); lia.
Qed.

Lemma write_to_at_all_spec : forall jobs,
  (forall j, In j jobs <-> In j (index_from 0 (keys_of_leaves H L 0 lv))) ->
  match write_to_at H L s (length lv) jobs [] with
  | Ok f' => forall x, file_get f' x = nth_error c x
  | Err => ~ stored H L s lv
  | _ => False
  end.
Proof.
  intros jobs Hperm.
  assert (Hin : forall i k, In (i, k) jobs <-> exists d, nth_error lv i = Some d /\ k = hkey H L i d).
  { intros i k. rewrite Hperm, In_index_from, Nat.sub_0_r, nth_error_keys. cbn [Nat.add].
    destruct (nth_error lv i) as [d|]; cbn [option_map].
    - split; [intros [_ E]; exists d; split; congruence|intros (d' & E & ->); split; [lia|congruence]].
    - split; [intros [_ E]|intros (d' & E & _)]; discriminate. }
  assert (Hj : Forall (fun j => exists d, nth_error lv (fst j) = Some d /\ snd j = hkey H L (fst j) d) jobs).
  { apply Forall_forall. intros [i k] Hik. now apply Hin. }
  pose proof (write_to_at_spec jobs [] Hj) as Hs.
  destruct (write_to_at H L s (length lv) jobs []) as [f'| | |]; auto.
  intros x. rewrite Hs. cbn [file_get].
  destruct (existsb _ jobs) eqn:Ee; [now destruct (nth_error c x)|].
  (* no job for slot x / L: it lies beyond the last leaf *)
  symmetry. apply nth_error_None. pose proof (content_length L Lpos c lv Hlv) as Hlen.
  destruct (nth_error lv (x / L)) as [d|] eqn:Hd.
  - rewrite (proj2 (existsb_exists _ jobs)) in Ee; [discriminate|].
    exists (x / L, hkey H L (x / L) d). split; [apply Hin; eauto|apply Nat.eqb_refl].
  - apply nth_error_None in Hd. pose proof (Nat.div_mod_eq x L). nia.
Qed.

End Readers.

Section Top.
Variable H : N -> N -> N -> bool -> list N -> list N.
Variable L : nat.
Hypothesis Lpos : 0 < L.
Hypothesis H_len : forall l o d b x, length (H l o d b x) = KS.

Theorem read_at_spec : forall s c off want, presents H L s c ->
  match read_at H L (tree_key H L c) s off want with
  | Ok r => r = firstn want (skipn off c)
  | Err => ~ holds H L s c
  | _ => False
  end.
Proof.
  intros s c off want [Hroot Hf]. unfold read_at.
  destruct (leaves_for_hash H L (tree_key H L c) s) as [ks|] eqn:El.
  - rewrite (Hroot ks eq_refl).
    pose proof (read_at_keys_spec H L Lpos s c _ eq_refl Hf off want) as Hs. cbv zeta in Hs.
    destruct (if _ <=? _ then _ else _); auto. intros Hh. now apply Hs, holds_stored.
  - intros Hh. rewrite (leaves_for_hash_complete H L H_len s c Hh) in El. discriminate.
Qed.

Theorem read_seq_spec : forall s c bufs orc, presents H L s c ->
  match read_seq H L (tree_key H L c) s bufs orc with
  | Ok r => r = c
  | Err => ~ holds H L s c
  | Hang => holds H L s c -> Forall (fun k => 0 < k) bufs -> length bufs <= length c
  | Panic => False
  end.
Proof.
  intros s c bufs orc [Hroot Hf]. unfold read_seq.
  destruct (leaves_for_hash H L (tree_key H L c) s) as [ks|] eqn:El.
  - rewrite (Hroot ks eq_refl), keys_length.
    pose proof (read_all_spec H L Lpos s c _ eq_refl Hf bufs _ orc [] (inv_start H L s _)) as Hs.
    cbn [length] in Hs. rewrite Nat.sub_0_r in Hs.
    destruct (read_all _ _ _ _ _ _ _ _); auto; intros Hh; apply Hs; now apply holds_stored.
  - intros Hh. rewrite (leaves_for_hash_complete H L H_len s c Hh) in El. discriminate.
Qed.

(* on a store that holds the object the answers are exact; collisions do not matter *)
Theorem read_at_holds : forall s c off want, holds H L s c ->
  read_at H L (tree_key H L c) s off want = Ok (firstn want (skipn off c)).
Proof.
  intros s c off want Hh. pose proof (read_at_spec s c off want (holds_presents H L H_len s c Hh)) as Hs.
  destruct (read_at _ _ _ _ _ _); [now rewrite Hs|contradiction..].
Qed.

Theorem read_seq_holds : forall s c bufs orc, holds H L s c ->
  Forall (fun k => 0 < k) bufs -> length c < length bufs ->
  read_seq H L (tree_key H L c) s bufs orc = Ok c.
Proof.
  intros s c bufs orc Hh Hpos Hlen.
  pose proof (read_seq_spec s c bufs orc (holds_presents H L H_len s c Hh)) as Hs.
  destruct (read_seq _ _ _ _ _ _); [now rewrite Hs|specialize (Hs Hh Hpos); lia|contradiction..].
Qed.

Theorem write_to_at_holds : forall s c jobs, holds H L s c ->
  (forall j, In j jobs <-> In j (index_from 0 (keys_of_leaves H L 0 (split_leaves L c)))) ->
  exists f', write_to_at H L s (length (split_leaves L c)) jobs [] = Ok f' /\
             forall x, file_get f' x = nth_error c x.
Proof.
  intros s c jobs Hh Hperm. apply holds_stored in Hh.
  pose proof (write_to_at_all_spec H L Lpos s c _ eq_refl (stored_faithful H L s _ Hh) jobs Hperm) as Hs.
  destruct (write_to_at _ _ _ _ _ _); [eauto|contradiction..].
Qed.

End Top.
