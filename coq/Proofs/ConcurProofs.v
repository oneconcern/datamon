(* C15: in a content-addressed store no write of one operation is lost or altered by the writes of
   another, whatever the order in which they take effect. *)
From Coq Require Import List Bool.
From DM Require Import Base.ListFacts Model.Concur.
Import ListNotations.
Open Scope list_scope.

Lemma key_eqb_eq : forall a b, key_eqb a b = true <-> a = b.
Proof.
  intros [a1 a2] [b1 b2]. unfold key_eqb. cbn [fst snd]. rewrite andb_true_iff, !String.eqb_eq.
  split; [intros [-> ->]; reflexivity|intros [= -> ->]; auto].
Qed.

(* lookup / set are ListFacts.aget / aset at key_eqb *)
Lemma lookup_set : forall k k' d s, lookup k' (set k d s) = if key_eqb k' k then Some d else lookup k' s.
Proof. exact (aget_aset key_eqb key_eqb_eq). Qed.

(* what one write does to one key: nothing to another key; to its own, the new content unless it is
   create-if-absent and the key exists *)
Lemma lookup_apply_put : forall s p k, lookup k (fst (apply_put s p)) =
  if key_eqb k (p_store p, p_key p)
  then match lookup k s with Some d => Some (if p_excl p then d else p_digest p) | None => Some (p_digest p) end
  else lookup k s.
Proof.
  intros s p k. unfold apply_put. destruct (key_eqb k _) eqn:E.
  - apply key_eqb_eq in E. subst k.
    destruct (lookup _ s) eqn:El; [destruct (p_excl p)|]; cbn [fst];
      rewrite ?lookup_set, ?(proj2 (key_eqb_eq _ _) eq_refl); auto.
  - destruct (lookup (p_store p, p_key p) s); [destruct (p_excl p)|]; cbn [fst]; rewrite ?lookup_set, ?E; reflexivity.
Qed.

Lemma replay_cons : forall p trace s, replay (p :: trace) s = replay trace (fst (apply_put s p)).
Proof. reflexivity. Qed.

Lemma replay_app : forall a b s, replay (a ++ b) s = replay b (replay a s).
Proof. intros. apply fold_left_app. Qed.

Lemma replay_keeps : forall trace s k d,
  lookup k s = Some d ->
  (forall p, In p trace -> (p_store p, p_key p) = k -> p_digest p = d) ->
  lookup k (replay trace s) = Some d.
Proof.
  intros trace s k d H Hall. apply (fold_left_inv (fun s' => lookup k s' = Some d)); [|exact H].
  intros s' p Hp Hs'. rewrite lookup_apply_put, Hs'. destruct (key_eqb k _) eqn:E; [|reflexivity].
  apply key_eqb_eq in E. rewrite (Hall p Hp (eq_sym E)). now destruct (p_excl p).
Qed.
