(* C09, delete-files: DeleteEntriesFromRepo leaves every bundle holding exactly its other entries,
   in a layout the reader accepts, and touches nothing outside the bundle.  Two ideas: the layout
   written back starts with the lists that were full and untouched (relayout_app), and writing
   any layout over the stored one from its first new list on leaves that layout stored (relaid). *)
From Coq Require Import List String NArith Bool Arith Lia.
From DM Require Import Base.ListFacts Base.Str Gen.Paths Model.Meta Model.Bundle Model.RepoOps Proofs.BundleProofs Proofs.RepoProofs.
Import ListNotations.
Open Scope list_scope.

Local Notation fl r id j := (GetArchivePathToBundleFileList r id (N.of_nat j)).

(* the bundle (r, id) is in m with file lists ls: its descriptor counts them, list j is nth j ls *)
Definition stored (r id : string) (ls : list (list entry)) (m : mstore) : Prop :=
  mget (GetArchivePathToBundle r id) m = Some (VBundle id (N.of_nat (List.length ls))) /\
  forall j, j < List.length ls -> mget (GetArchivePathToBundleFileList r id (N.of_nat j)) m = Some (VIndex (nth j ls [])).

(* the reader's requirement: every list but the last is full, the last one is not overfull *)
Definition wf_layout (E : nat) (ls : list (list entry)) : Prop :=
  (forall j, S j < List.length ls -> List.length (nth j ls []) = E) /\ (ls <> [] -> List.length (last ls []) <= E).

(* it speaks of the bundle's directory only *)
Lemma stored_frame : forall r id ls m m', (forall k, under_bundle r id k = true -> mget k m' = mget k m) ->
  stored r id ls m -> stored r id ls m'.
Proof.
  intros r id ls m m' H [A B]. split.
  - rewrite H; [exact A|apply descriptor_under].
  - intros j Hj. rewrite H; [now apply B|apply filelist_under].
Qed.

Lemma read_indexes_stored : forall ls r id i m,
  (forall j, j < List.length ls -> mget (GetArchivePathToBundleFileList r id (N.of_nat (i + j))) m = Some (VIndex (nth j ls []))) ->
  read_indexes (List.length ls) r id (N.of_nat i) m = Some ls.
Proof.
  induction ls as [|l ls IH]; intros r id i m H; [reflexivity|].
  cbn [List.length read_indexes]. pose proof (H 0 (Nat.lt_0_succ _)) as H0. rewrite Nat.add_0_r in H0.
  rewrite H0, N_of_nat_S, IH; [reflexivity|].
  intros j Hj. rewrite Nat.add_succ_comm. apply H. now apply -> Nat.succ_lt_mono.
Qed.

(* the d lists before the one found are kept whole and full; when none is found all are kept whole
   and all but the last are full *)
Lemma first_modified_spec : forall E paths ls i,
  match first_modified E paths ls i with
  | Some f => exists d, f = i + d /\ d < List.length ls /\
              Forall (fun l => keep_entries paths l = l /\ List.length l = E) (firstn d ls)
  | None => Forall (fun l => keep_entries paths l = l) ls /\
            (forall j, S j < List.length ls -> List.length (nth j ls []) = E)
  end.
Proof.
  intros E paths ls. induction ls as [|l t IH]; intros i; cbn [first_modified].
  { split; [constructor|]. intros j Hj. inversion Hj. }
  destruct (negb (Nat.eqb (List.length (keep_entries paths l)) (List.length l))
            || match t with [] => false | _ :: _ => negb (Nat.eqb (List.length l) E) end) eqn:C.
  - exists 0. split; [symmetry; apply Nat.add_0_r|]. split; [apply Nat.lt_0_succ|constructor].
  - (* l is kept whole and, unless it is the last list, is full *)
    apply orb_false_iff in C. destruct C as [C1 C2]. apply negb_false_iff, Nat.eqb_eq, filter_length_same in C1.
    assert (Hfull : t <> [] -> List.length l = E).
    { destruct t; [congruence|]. intros _. now apply negb_false_iff, Nat.eqb_eq in C2. }
    specialize (IH (S i)). destruct (first_modified E paths t (S i)) as [f|].
    + destruct IH as [d [-> [Hd F]]]. exists (S d). split; [apply Nat.add_succ_comm|].
      split; [now apply -> Nat.succ_lt_mono|]. constructor; [|exact F].
      split; [exact C1|]. apply Hfull. intros ->. inversion Hd.
    + destruct IH as [A B]. split; [constructor; auto|]. intros j Hj. apply Nat.succ_lt_mono in Hj. destruct j as [|j].
      * apply Hfull. intros ->. inversion Hj.
      * now apply B.
Qed.

Lemma overwrite_indexes_frame : forall cs r id i m k,
  (forall j, i <= j -> k <> fl r id j) -> mget k (overwrite_indexes r id (N.of_nat i) cs m) = mget k m.
Proof.
  induction cs as [|c cs IH]; intros r id i m k H; [reflexivity|].
  cbn [overwrite_indexes]. rewrite N_of_nat_S, IH by (intros j Hj; apply H, Nat.lt_le_incl, Hj).
  apply mget_mput_other, not_eq_sym, H, Nat.le_refl.
Qed.

Lemma overwrite_indexes_get : forall cs r id i m j, j < List.length cs ->
  mget (fl r id (i + j)) (overwrite_indexes r id (N.of_nat i) cs m) = Some (VIndex (nth j cs [])).
Proof.
  induction cs as [|c cs IH]; intros r id i m j Hj; [inversion Hj|].
  cbn [overwrite_indexes]. rewrite N_of_nat_S. destruct j as [|j].
  - rewrite overwrite_indexes_frame.
    + rewrite Nat.add_0_r. apply mget_mput_same.
    + intros j Hj' E. apply filelist_key_inj in E. lia.
  - rewrite <- Nat.add_succ_comm. apply IH. now apply Nat.succ_lt_mono.
Qed.

(* drop_indexes and delete_n are the same loop, defined twice in the model: convertible *)
Lemma drop_indexes_delete_n : forall n r id i m, drop_indexes n r id i m = delete_n n r id i m.
Proof. reflexivity. Qed.

Lemma delete_n_gone : forall n r id i m j, j < n -> mget (fl r id (i + j)) (delete_n n r id (N.of_nat i) m) = None.
Proof.
  induction n as [|n IH]; intros r id i m j Hj; [inversion Hj|].
  cbn [delete_n]. rewrite N_of_nat_S. destruct j as [|j].
  - rewrite delete_n_frame.
    + rewrite Nat.add_0_r. apply mget_mdelete_same.
    + intros j Hj' E. apply filelist_key_inj in E. lia.
  - rewrite <- Nat.add_succ_comm. apply IH. now apply Nat.succ_lt_mono.
Qed.

Lemma relayout_spec : forall E l, 0 < E ->
  wf_layout E (relayout E l) /\ List.concat (relayout E l) = l.
Proof.
  intros E l HE. unfold relayout. pose proof (chunk_concat E l HE) as Hc. pose proof (chunk_layout E l HE) as Hw.
  destruct (chunk E l) as [|c cs] eqn:Ec; [|now split].
  subst l. repeat split; cbn; lia.
Qed.

Lemma keep_concat : forall paths (ls : list (list entry)),
  keep_entries paths (List.concat ls) = List.concat (map (keep_entries paths) ls).
Proof. intros. unfold keep_entries. symmetry. apply concat_filter_map. Qed.

Lemma keep_concat_same : forall paths (ls : list (list entry)),
  Forall (fun l => keep_entries paths l = l) ls -> keep_entries paths (List.concat ls) = List.concat ls.
Proof. intros paths ls F. now rewrite keep_concat, (map_ext_Forall _ _ F), map_id. Qed.

(* full lists that are kept whole come back as they were, whatever follows them *)
Lemma relayout_app : forall E paths (a b : list (list entry)), 0 < E ->
  Forall (fun l => keep_entries paths l = l /\ List.length l = E) a ->
  firstn (List.length a) (relayout E (keep_entries paths (List.concat (a ++ b)))) = a /\
  List.length a <= List.length (relayout E (keep_entries paths (List.concat (a ++ b)))).
Proof.
  intros E paths a b HE F. apply Forall_and_inv in F. destruct F as [Fkept Ffull].
  assert (Heq : chunk E (keep_entries paths (List.concat (a ++ b))) = a ++ chunk E (keep_entries paths (List.concat b))).
  { rewrite keep_concat, map_app, concat_app, (map_ext_Forall _ _ Fkept), map_id, <- keep_concat, !chunk_chunks.
    now apply chunks_concat_prefix. }
  unfold relayout. rewrite Heq. destruct a as [|a0 a]; [split; [reflexivity|apply Nat.le_0_l]|].
  cbn [app List.length firstn]. split.
  - f_equal. rewrite <- (Nat.add_0_r (List.length a)), firstn_app_2. apply app_nil_r.
  - rewrite app_length. apply le_n_S, Nat.le_add_r.
Qed.

(* any layout cs that agrees with the stored one below f, written over it from f on, the count set
   and the surplus lists dropped, is what is stored then *)
Lemma relaid : forall r id ls cs f m,
  stored r id ls m -> firstn f cs = firstn f ls -> f <= List.length cs -> f <= List.length ls ->
  let m1 := overwrite_indexes r id (N.of_nat f) (skipn f cs) m in
  let m' := if Nat.eqb (List.length cs) (List.length ls) then m1
            else drop_indexes (List.length ls - List.length cs) r id (N.of_nat (List.length cs))
                   (snd (mput (GetArchivePathToBundle r id) (VBundle id (N.of_nat (List.length cs))) false m1)) in
  stored r id cs m' /\
  (forall j, List.length cs <= j -> j < List.length ls -> mget (fl r id j) m' = None) /\
  (forall k, under_bundle r id k = false -> mget k m' = mget k m).
Proof.
  intros r id ls cs f m [Hdesc Hlists] Hfirst Hfc Hfl m1.
  assert (Hdk : forall j, GetArchivePathToBundle r id <> fl r id j).
  { intros j E0. exact (filelist_not_own_descriptor r id _ (eq_sym E0)). }
  assert (Hout : forall k j, under_bundle r id k = false -> k <> fl r id j).
  { intros k j Hk ->. now rewrite filelist_under in Hk. }
  (* after the overwrite every list of cs is in place: below f it was there, from f on it was written *)
  assert (Hm1 : forall j, j < List.length cs -> mget (fl r id j) m1 = Some (VIndex (nth j cs []))).
  { intros j Hj. unfold m1. destruct (Nat.lt_ge_cases j f) as [Hlt|Hge].
    - rewrite overwrite_indexes_frame by (intros j' Hj' E0; apply filelist_key_inj, Nat2N.inj in E0; lia).
      rewrite <- (nth_firstn_lt cs f j [] Hlt), Hfirst, nth_firstn_lt by exact Hlt.
      apply Hlists. exact (Nat.lt_le_trans _ _ _ Hlt Hfl).
    - destruct (Nat.le_exists_sub f j Hge) as [d [-> _]]. rewrite (Nat.add_comm d f).
      rewrite overwrite_indexes_get by (rewrite skipn_length; apply Nat.lt_add_lt_sub_r; exact Hj).
      now rewrite nth_skipn. }
  destruct (Nat.eqb_spec (List.length cs) (List.length ls)) as [Ecnt|Ecnt]; cbv zeta.
  - split; [split; [|exact Hm1]|split].
    + unfold m1. rewrite overwrite_indexes_frame by (intros j _; apply Hdk). now rewrite Hdesc, Ecnt.
    + intros j Hj1 Hj2. lia.
    + intros k Hk. apply overwrite_indexes_frame. intros j _. now apply Hout.
  - rewrite drop_indexes_delete_n. split; [split|split].
    + rewrite delete_n_frame by (intros j _; apply Hdk). apply mget_mput_same.
    + intros j Hj. rewrite delete_n_frame by (intros j' Hj' E0; apply filelist_key_inj, Nat2N.inj in E0; lia).
      rewrite mget_mput_other by apply Hdk. now apply Hm1.
    + intros j Hj1 Hj2. destruct (Nat.le_exists_sub _ j Hj1) as [d [-> _]]. rewrite (Nat.add_comm d).
      apply delete_n_gone. apply Nat.lt_add_lt_sub_r. exact Hj2.
    + intros k Hk. rewrite delete_n_frame by (intros j _; now apply Hout).
      rewrite mget_mput_other by (intros E0; subst k; now rewrite descriptor_under in Hk).
      apply overwrite_indexes_frame. intros j _. now apply Hout.
Qed.

Lemma if_Some : forall {A} (b : bool) (x y : A), (if b then Some x else Some y) = Some (if b then x else y).
Proof. now intros A [|]. Qed.

Theorem scrub_bundle_exact : forall E r id ls paths m,
  0 < E -> stored r id ls m -> Forall (fun l => List.length l <= E) ls ->
  exists ls' m',
    scrub_bundle E r id (N.of_nat (List.length ls)) paths m = Some m' /\
    stored r id ls' m' /\ wf_layout E ls' /\
    List.concat ls' = keep_entries paths (List.concat ls) /\
    (forall j, List.length ls' <= j -> j < List.length ls -> mget (fl r id j) m' = None) /\
    (forall k, under_bundle r id k = false -> mget k m' = mget k m).
Proof.
  intros E r id ls paths m HE Hst Hmax.
  unfold scrub_bundle. rewrite Nat2N.id. change 0%N with (N.of_nat 0).
  rewrite (read_indexes_stored ls r id 0 m) by (intros j Hj; now apply Hst).
  pose proof (first_modified_spec E paths ls 0) as Hfm. destruct (first_modified E paths ls 0) as [f|].
  - (* some list changes: the layout of the kept entries is written from list f on *)
    destruct Hfm as [d [-> [Hf Hpre]]]. cbn [plus]. apply Nat.lt_le_incl in Hf.
    destruct (relayout_spec E (keep_entries paths (List.concat ls)) HE) as [Hwf Hcat].
    destruct (relayout_app E paths (firstn d ls) (skipn d ls) HE Hpre) as [Hfirst Hfle].
    rewrite firstn_skipn, firstn_length_le in Hfirst, Hfle by exact Hf.
    destruct (relaid r id ls _ d m Hst Hfirst Hfle Hf) as [Hs [Hgone Hfr]].
    (* the store is the one the test on the two counts selects: Hs below fixes it, and the first
       goal then holds on either side of the test *)
    eexists. eexists. split; [apply if_Some|]. split; [exact Hs|]. split; [exact Hwf|]. split; [exact Hcat|].
    split; [exact Hgone|exact Hfr].
  - destruct Hfm as [Hsame Hfull]. exists ls, m.
    split; [reflexivity|]. split; [exact Hst|]. split; [split; [exact Hfull|]|split; [|split; [|reflexivity]]].
    + intros Hne. now apply (Forall_last (fun l => List.length l <= E)).
    + now rewrite keep_concat_same.
    + intros j Hj1 Hj2. exact (False_ind _ (Nat.lt_irrefl _ (Nat.lt_le_trans _ _ _ Hj2 Hj1))).
Qed.

Theorem scrub_bundles_exact : forall E r paths ids m (lay : string -> list (list entry)),
  0 < E -> noslash r = true -> NoDup ids -> (forall id, In id ids -> noslash id = true) ->
  (forall id, In id ids -> stored r id (lay id) m /\ Forall (fun l => List.length l <= E) (lay id)) ->
  exists m', scrub_bundles E r paths ids m = (ROk, m') /\
    (forall id, In id ids -> exists ls', stored r id ls' m' /\ wf_layout E ls' /\
                                          List.concat ls' = keep_entries paths (List.concat (lay id))) /\
    (forall k, (forall id, In id ids -> under_bundle r id k = false) -> mget k m' = mget k m).
Proof.
  intros E r paths ids. induction ids as [|id t IH]; intros m lay HE Hr Hnd Hns Hst.
  - exists m. split; [reflexivity|]. split; [intros id []|reflexivity].
  - apply NoDup_cons_iff in Hnd. destruct Hnd as [Hnotin Hnd].
    destruct (Hst id (or_introl eq_refl)) as [Hs Hmax].
    assert (Hid : noslash id = true) by (apply Hns; now left).
    destruct (scrub_bundle_exact E r id (lay id) paths m HE Hs Hmax) as [ls' [m1 [Hrun [Hs1 [Hwf [Hcat [_ Hfr]]]]]]].
    cbn [scrub_bundles]. destruct Hs as [Hd Hl]. rewrite Hd, Hrun.
    (* the bundles still to come are other bundles, so their directories lie elsewhere *)
    assert (Hne : forall id', In id' t -> id <> id') by (intros id' Hin ->; contradiction).
    destruct (IH m1 lay HE Hr Hnd (fun i Hi => Hns i (or_intror Hi))) as [m' [Hrun' [Hall Hfr']]].
    { intros id' Hin. destruct (Hst id' (or_intror Hin)) as [Hs' Hmax']. split; [|exact Hmax'].
      apply (stored_frame r id' (lay id') m m1); [|exact Hs']. intros k Hk. apply Hfr.
      exact (other_bundle_not_under r id id' k Hid (Hns id' (or_intror Hin)) (Hne id' Hin) Hk). }
    exists m'. split; [exact Hrun'|]. split.
    + intros i [<-|Hin]; [|now apply Hall].
      exists ls'. split; [|split; assumption].
      apply (stored_frame r id ls' m1 m'); [|exact Hs1]. intros k Hk. apply Hfr'. intros id' Hin'.
      exact (other_bundle_not_under r id' id k (Hns id' (or_intror Hin')) Hid (fun e => Hne id' Hin' (eq_sym e)) Hk).
    + intros k Hk. rewrite Hfr' by (intros i Hi; apply Hk; now right). apply Hfr. apply Hk. now left.
Qed.

(* the premises are met by a concrete bundle with two file lists, and the result is the expected one:
   the surviving entries move up, the descriptor says one list, the second list is gone *)
Example delete_files_example :
  let e := fun n => {| e_name := n; e_hash := "h"; e_size := 1%N |} in
  let ls := [[e "a"; e "b"]; [e "c"]]%string in
  let m := [(GetArchivePathToBundle "r" "b", VBundle "b" 2);
            (GetArchivePathToBundleFileList "r" "b" 0, VIndex (nth 0 ls []));
            (GetArchivePathToBundleFileList "r" "b" 1, VIndex (nth 1 ls []));
            (GetArchivePathToBundle "r" "other", VBundle "other" 0)]%string in
  stored "r" "b" ls m /\ Forall (fun l => List.length l <= 2) ls /\
  match scrub_bundle 2 "r" "b" 2 ["a"%string] m with
  | Some m' => mget (GetArchivePathToBundle "r" "b") m' = Some (VBundle "b" 1) /\
               mget (GetArchivePathToBundleFileList "r" "b" 0) m' = Some (VIndex [e "b"; e "c"]%string) /\
               mget (GetArchivePathToBundleFileList "r" "b" 1) m' = None /\
               mget (GetArchivePathToBundle "r" "other") m' = Some (VBundle "other" 0)
  | None => False
  end.
Proof.
  intros e ls m. split; [split; [reflexivity|]|split].
  - intros j Hj. destruct j as [|[|j]]; [reflexivity|reflexivity|]. cbn in Hj. lia.
  - repeat constructor.
  - vm_compute. repeat apply conj; reflexivity.
Qed.
